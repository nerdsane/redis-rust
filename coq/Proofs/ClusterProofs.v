(* Proofs about Model/Cluster.v: strong eventual consistency of the replication state.
   The class in_class U K (K = LWW or hash) is closed under rv_merge, and rv_merge is associative,
   commutative and idempotent on it (Leibniz equality).  A local operation equals merging the
   delta it emits.  Hence every node's value of a key is the fold-merge of the deltas it
   incorporated, and nodes that incorporated the same set of deltas hold the same value. *)
From stdpp Require Import gmap.
From Coq Require Import NArith Lia.
From RV Require Import Lib.Hex Model.Crdt Proofs.CrdtProofs Model.ShardState
  Proofs.ShardStateProofs Model.Cluster Proofs.SemilatticeFold.
Local Open Scope N_scope.

(* the log of emitted deltas: (origin, key, delta) *)
Notation logt := (list (nat * list N * rvalue)) (only parsing).

Lemma kind_lww c : kind c = 0 → ∃ r, c = CLww r.
Proof. destruct c; try discriminate. eauto. Qed.
Lemma kind_hash c : kind c = 5 → ∃ h, c = CHash h.
Proof. destruct c; try discriminate. eauto. Qed.

Lemma fold_merge_push l d :
  fold_merge (l ++ [d]) = Some (match fold_merge l with Some v => rv_merge v d | None => d end).
Proof. destruct l; simpl; [done|]. by rewrite fold_left_app. Qed.

Lemma fold_merge_snoc l d v :
  fold_merge l = Some v → fold_merge (l ++ [d]) = Some (rv_merge v d).
Proof. intros H. by rewrite fold_merge_push, H. Qed.

Section klass.
  Context (U : stamp → option lww) (K : N).
  Hypothesis HK : K = 0 ∨ K = 5.

  Lemma respects_compat r1 r2 : U (lw_ts r1) = Some r1 → U (lw_ts r2) = Some r2 → lww_compat r1 r2.
  Proof. intros H1 H2 E. rewrite E in H1. congruence. Qed.

  Lemma class_compatible a b : in_class U K a → in_class U K b → Compatible a b.
  Proof.
    intros (Ka & Ra & _) (Kb & Rb & _). unfold Compatible. destruct HK as [->| ->].
    - destruct (kind_lww _ Ka) as [ra Ea], (kind_lww _ Kb) as [rb Eb]. rewrite Ea, Eb in *.
      by apply respects_compat.
    - destruct (kind_hash _ Ka) as [ha Ea], (kind_hash _ Kb) as [hb Eb]. rewrite Ea, Eb in *.
      intros f r1 r2 H1 H2. exact (respects_compat _ _ (Ra f r1 H1) (Rb f r2 H2)).
  Qed.

  Lemma class_closed a b : in_class U K a → in_class U K b → in_class U K (rv_merge a b).
  Proof.
    intros (Ka & Ra & Pa1 & Pa2 & Pa3) (Kb & Rb & Pb1 & Pb2 & Pb3).
    unfold in_class, plain, rv_merge; simpl. rewrite Pa1, Pa2, Pa3, Pb1, Pb2, Pb3; simpl.
    unfold merge_with_ts. destruct HK as [->| ->].
    - destruct (kind_lww _ Ka) as [ra Ea], (kind_lww _ Kb) as [rb Eb]. rewrite Ea, Eb in *.
      simpl. split_and!; try done. by apply (lww_merge_ind (λ r, U (lw_ts r) = Some r)).
    - destruct (kind_hash _ Ka) as [ha Ea], (kind_hash _ Kb) as [hb Eb]. rewrite Ea, Eb in *.
      simpl. split_and!; try done. by apply (hash_merge_Forall (λ r, U (lw_ts r) = Some r)).
  Qed.

  Lemma class_idem a : in_class U K a → rv_merge a a = a.
  Proof.
    intros (Ka & Ra & Pa1 & Pa2 & Pa3). destruct a as [c vc e t rf]; simpl in *. subst.
    unfold rv_merge; simpl. rewrite stamp_merge_idem. f_equal. unfold merge_with_ts.
    destruct c; simpl in *; try done.
    - by rewrite lww_merge_idem.
    - by rewrite hash_merge_idem.
  Qed.

  Lemma class_comm a b : in_class U K a → in_class U K b → rv_merge a b = rv_merge b a.
  Proof. intros Ha Hb. apply rv_merge_comm. by apply class_compatible. Qed.

  Lemma class_assoc a b c : in_class U K a → in_class U K b → in_class U K c →
    rv_merge a (rv_merge b c) = rv_merge (rv_merge a b) c.
  Proof.
    intros (Ka & _) (Kb & _) (Kc & _). apply rv_merge_assoc. split; congruence.
  Qed.

  Theorem fold_merge_same_set l1 l2 :
    Forall (in_class U K) l1 → Forall (in_class U K) l2 → same_set l1 l2 →
    fold_merge l1 = fold_merge l2.
  Proof.
    intros H1 H2 Hs. destruct l1 as [|x xs], l2 as [|y ys]; simpl.
    - done.
    - exfalso. destruct (Hs y) as [_ H]. apply H. by left.
    - exfalso. destruct (Hs x) as [H _]. apply H. by left.
    - f_equal. apply (fold_set_eq rv_merge (in_class U K)); auto using class_closed, class_idem, class_comm, class_assoc.
  Qed.

  Lemma fold_merge_in_class l v : Forall (in_class U K) l → fold_merge l = Some v → in_class U K v.
  Proof.
    intros Hl. destruct l as [|x xs]; simpl; [done|]. intros [= <-].
    inversion Hl; subst. apply (fold_closed rv_merge (in_class U K)); auto using class_closed.
  Qed.

End klass.

Definition Inv2 (s : shard) : Prop :=
  ∀ k v, sh_keys s !! k = Some v → stamp_ltb (now s) (rv_ts v) = false.

Lemma now_ltb_mono s s' t :
  sh_rid s' = sh_rid s → sh_time s ≤ sh_time s' →
  stamp_ltb (now s) t = false → stamp_ltb (now s') t = false.
Proof.
  intros Hr Ht H. apply not_true_iff_false. apply not_true_iff_false in H. intros Hlt. apply H.
  revert Hlt. rewrite !stamp_ltb_spec. unfold now; simpl. rewrite Hr. lia.
Qed.

Lemma start_value_inv2 s e : Inv2 s → stamp_ltb (now s) (rv_ts (start_value s e)) = false.
Proof.
  intros HI. unfold start_value. destruct (sh_keys s !! key_of e) eqn:Hk; [by apply (HI _ _ Hk)|].
  destruct (fresh_value_zero s e) as [[Ht _] Hr]. simpl.
  apply not_true_iff_false. rewrite stamp_ltb_spec. unfold now; simpl. lia.
Qed.

Definition newer_or_same (b : N) (h h' : gmap (list N) lww) : Prop :=
  ∀ f, h' !! f = h !! f ∨ (∃ r', h' !! f = Some r' ∧ b < st_time (lw_ts r')).

Lemma newer_or_same_refl b h : newer_or_same b h h.
Proof. intros f. by left. Qed.

Lemma newer_or_same_insert b h h' f r :
  newer_or_same b h h' → b < st_time (lw_ts r) → newer_or_same b h (<[ f := r ]> h').
Proof.
  intros H Hr g. destruct (decide (f = g)) as [->|Hne].
  - right. exists r. by rewrite lookup_insert.
  - rewrite lookup_insert_ne by done. apply H.
Qed.

Lemma hash_merge_newer b h h' :
  map_Forall (λ _ r, st_time (lw_ts r) ≤ b) h → newer_or_same b h h' → hash_merge h h' = h'.
Proof.
  intros Hb Hn. apply map_eq; intros f. unfold hash_merge. rewrite lookup_union_with.
  destruct (Hn f) as [E|(r' & E & Hr')]; rewrite E; destruct (h !! f) as [r|] eqn:Hf; simpl; try done.
  - by rewrite lww_merge_idem.
  - specialize (Hb f r Hf). simpl in Hb.
    unfold lww_merge. by rewrite (stamp_lt_of_time (lw_ts r) (lw_ts r')) by lia.
Qed.

(* unfolding equations ([hash_set_all] and [hash_delete_all] are [simpl never]) *)
Lemma hash_set_all_cons s v f x fs :
  hash_set_all s v ((f, x) :: fs) =
  hash_set_all (tick s)
    (RV (CHash (<[ f := Lww (Some x) (now (tick s)) false ]> (as_hash (rv_crdt v))))
        (rv_vc v) (rv_exp v) (now (tick s)) (rv_rf v)) fs.
Proof. reflexivity. Qed.

Lemma hash_delete_all_cons s v f fs :
  hash_delete_all s v (f :: fs) =
  hash_delete_all (rv_hash_delete s v f).1 (rv_hash_delete s v f).2 fs.
Proof. unfold hash_delete_all at 1. fold hash_delete_all. by destruct (rv_hash_delete s v f). Qed.

Definition same_meta (v0 v : rvalue) : Prop :=
  rv_vc v = rv_vc v0 ∧ rv_exp v = rv_exp v0 ∧ rv_rf v = rv_rf v0.

Lemma hash_set_all_meta fs : ∀ s v, same_meta v (hash_set_all s v fs).2.
Proof.
  induction fs as [|[f x] fs IH]; intros s v; [done|]. rewrite hash_set_all_cons.
  set (v1 := RV _ _ _ _ _). by destruct (IH (tick s) v1) as (A & B & C).
Qed.

Lemma hash_delete_all_meta fs : ∀ s v, same_meta v (hash_delete_all s v fs).2.
Proof.
  induction fs as [|f fs IH]; intros s v; [done|]. rewrite hash_delete_all_cons.
  destruct (IH (rv_hash_delete s v f).1 (rv_hash_delete s v f).2) as (A & B & C).
  unfold same_meta. rewrite A, B, C. unfold rv_hash_delete.
  destruct (rv_crdt v) as [| | | | |h]; [done..|]. by destruct (h !! f).
Qed.

(* [v] is a hash with the fields of [h], except for some stamped above [b]: what field
   operations from clock [b] on make of a hash *)
Definition grown (b : N) (h : gmap (list N) lww) (v : rvalue) : Prop :=
  ∃ h', rv_crdt v = CHash h' ∧ newer_or_same b h h'.

Lemma hash_set_all_grown b h fs : ∀ s v,
  grown b h v → b ≤ sh_time s → sh_ovf (hash_set_all s v fs).1 = false →
  grown b h (hash_set_all s v fs).2.
Proof.
  induction fs as [|[f x] fs IH]; intros s v (hc & Hc & Hn) Hb Ho.
  - by exists hc.
  - rewrite hash_set_all_cons in *. set (v1 := RV _ _ _ _ _) in *.
    destruct (tick_spec s (sticky_false _ _ (hash_set_all_ovf fs _ v1) Ho)) as (Ht & _).
    apply IH; [|lia|done]. eexists. split; [done|]. rewrite Hc.
    apply newer_or_same_insert; [done|]. simpl. lia.
Qed.

(* the first field written makes a hash of whatever the value was *)
Lemma hash_set_all_grown_from fs s v :
  fs ≠ [] → sh_ovf (hash_set_all s v fs).1 = false →
  grown (sh_time s) (as_hash (rv_crdt v)) (hash_set_all s v fs).2.
Proof.
  destruct fs as [|[f x] fs]; [done|]. intros _. rewrite hash_set_all_cons.
  set (v1 := RV _ _ _ _ _). intros Ho.
  destruct (tick_spec s (sticky_false _ _ (hash_set_all_ovf fs _ v1) Ho)) as (Ht & _).
  apply hash_set_all_grown; [|lia|done]. eexists. split; [done|].
  apply newer_or_same_insert; [apply newer_or_same_refl|]. simpl. lia.
Qed.

Lemma hash_delete_all_grown b h fs : ∀ s v,
  grown b h v → b ≤ sh_time s → sh_ovf (hash_delete_all s v fs).1 = false →
  grown b h (hash_delete_all s v fs).2.
Proof.
  induction fs as [|f fs IH]; intros s v Hg Hb Ho; [done|].
  rewrite hash_delete_all_cons in *.
  pose proof (sticky_false _ _ (hash_delete_all_ovf fs _ _) Ho) as Ho1.
  pose proof (lo_time _ _ _ (rv_hash_delete_local s v f) Ho1) as Ht1.
  apply IH; [|lia|done]. destruct Hg as (hc & Hc & Hn).
  unfold rv_hash_delete in *. rewrite Hc in *.
  destruct (hc !! f); cbn [fst snd] in *; (eexists; split; [done|]); [|done].
  destruct (tick_spec s Ho1) as (Ht & _). apply newer_or_same_insert; [done|]. simpl. lia.
Qed.

Definition absorbs (v d : rvalue) : Prop := rv_merge v d = d ∧ plain d.

Lemma rv_merge_absorb v d :
  plain v → plain d → stamp_ltb (rv_ts d) (rv_ts v) = false →
  merge_with_ts (rv_crdt v) (rv_crdt d) (rv_ts v) (rv_ts d) = rv_crdt d → rv_merge v d = d.
Proof.
  destruct v as [cv ? ? tv ?], d as [cd ? ? td ?]. unfold plain, rv_merge. simpl.
  intros (-> & -> & ->) (-> & -> & ->) Ht Hc. by rewrite Hc, (stamp_merge_ge _ _ Ht).
Qed.

Lemma lww_absorbs v d r b :
  plain v → plain d → times_le v b → rv_crdt d = CLww r →
  b < st_time (lw_ts r) → b < st_time (rv_ts d) → rv_merge v d = d.
Proof.
  intros Hv Hd [H1 H2] Hc Hr Ht. apply rv_merge_absorb; auto.
  - apply stamp_nlt_of_time. lia.
  - rewrite Hc. apply (merge_lww_newer _ _ _ _ b); auto. apply stamp_lt_of_time. lia.
Qed.

(* for a hash the outer stamp need only be above when it has to decide between two kinds *)
Lemma grown_absorbs v d b :
  plain v → times_le v b → grown b (as_hash (rv_crdt v)) d → same_meta v d →
  stamp_ltb (rv_ts d) (rv_ts v) = false →
  (kind (rv_crdt v) ≠ 5 → stamp_ltb (rv_ts v) (rv_ts d) = true) → absorbs v d.
Proof.
  intros Hv [_ H2] (h' & Hc & Hn) (C & D & F) Hge Hlt.
  assert (Hd : plain d) by (unfold plain; by rewrite C, D, F).
  split; [|done]. apply rv_merge_absorb; auto.
  rewrite Hc. unfold merge_with_ts.
  destruct (rv_crdt v); simpl; try (by rewrite Hlt). f_equal. by apply (hash_merge_newer b).
Qed.

(* Each local operation stamps what it touches above everything in the value it runs on, so
   its result absorbs that value. *)
Lemma rv_set_absorbs s v val :
  sh_causal s = false → plain v → times_le v (sh_time s) → sh_ovf (rv_set s v val).1 = false →
  absorbs v (with_exp (rv_set s v val).2 None).
Proof.
  intros Hca Hpl Hle. unfold rv_set. rewrite (proj2 (proj2 (tick_fields s))), Hca. cbn [fst snd].
  intros Ho. destruct (tick_spec s Ho) as (Ht & _).
  set (d := with_exp _ None). assert (Hpd : plain d) by (by destruct Hpl as (? & _ & ?)).
  split; [|done]. eapply (lww_absorbs _ _ _ (sh_time s)); eauto; simpl; lia.
Qed.

Lemma rv_delete_absorbs s v :
  plain v → times_le v (sh_time s) → rv_merge v v = v → sh_ovf (rv_delete s v).1 = false →
  absorbs v (rv_delete s v).2.
Proof.
  intros Hpl Hle Hidem. unfold rv_delete. destruct (rv_crdt v); try done. cbn [fst snd].
  intros Ho. destruct (tick_spec s Ho) as (Ht & _).
  split; [|done]. eapply (lww_absorbs _ _ _ (sh_time s)); eauto; simpl; lia.
Qed.

Lemma hash_set_all_absorbs fs s v :
  plain v → times_le v (sh_time s) → rv_merge v v = v → sh_ovf (hash_set_all s v fs).1 = false →
  absorbs v (hash_set_all s v fs).2.
Proof.
  intros Hpl Hle Hidem Ho. destruct fs as [|p fs]; [done|].
  pose proof (hash_set_all_lt (p :: fs) s v ltac:(done) Ho) as Hlt.
  destruct (lo_ts _ _ _ (hash_set_all_local (p :: fs) s v)) as [E|Hts];
    [rewrite E in Hlt; simpl in Hlt; lia|].
  pose proof Hle as [Hle1 _].
  apply (grown_absorbs _ _ (sh_time s)); auto using hash_set_all_meta;
    [by apply hash_set_all_grown_from|..]; rewrite Hts.
  - apply stamp_nlt_of_time. simpl. lia.
  - intros _. apply stamp_lt_of_time. simpl. lia.
Qed.

(* here the clock need not move, so the outer stamp is only known not to fall *)
Lemma hash_delete_all_absorbs fs s v h :
  rv_crdt v = CHash h → plain v → times_le v (sh_time s) → stamp_ltb (now s) (rv_ts v) = false →
  rv_merge v v = v → sh_ovf (hash_delete_all s v fs).1 = false →
  absorbs v (hash_delete_all s v fs).2.
Proof.
  intros Hc Hpl Hle Hge Hidem Ho. pose proof (hash_delete_all_local fs s v) as Hop.
  destruct (lo_ts _ _ _ Hop) as [E|Hts]; [by rewrite E|].
  apply (grown_absorbs _ _ (sh_time s)); auto using hash_delete_all_meta; rewrite ?Hc; try done.
  - apply hash_delete_all_grown; [|lia|done]. exists h. auto using newer_or_same_refl.
  - rewrite Hts. exact (now_ltb_mono s _ _ (lo_rid _ _ _ Hop) (lo_time _ _ _ Hop Ho) Hge).
Qed.

(* The events the glue records.  A write with an expiry is left out: the expiry takes the
   value out of the class (C06-expiry).  Unlike [is_write] (the events that tick) this takes
   in EDelete and EHDel. *)
Definition is_local (e : event) : bool :=
  match e with EWrite _ _ None | EDelete _ | EHSet _ _ | EHDel _ _ => true | _ => false end.

Lemma is_local_wf e : is_local e = true → wf_event e.
Proof. by destruct e. Qed.

Lemma opt_merge_plain {A} (f : A → A → A) : opt_merge f None None = None.
Proof. done. Qed.

(* Of the state this needs the two bounds ([Inv], [Inv2]) for the one stored value only. *)
Lemma local_absorbs s e s1 d v :
  sh_causal s = false → sh_keys s !! ev_key e = Some v →
  times_le v (sh_time s) → stamp_ltb (now s) (rv_ts v) = false → plain v → rv_merge v v = v →
  is_local e = true → step s e = (s1, Some d) → sh_ovf s1 = false → absorbs v d.
Proof.
  intros Hca Hk Hle Hge Hpl Hidem Hloc Hstep Ho.
  destruct (step_emits _ _ _ _ Hstep) as (r & Hrun & -> & ->).
  rewrite (start_value_stored _ _ _ Hk) in Hrun. change (sh_ovf r.1 = false) in Ho.
  destruct Hrun as [k val [x|]|k|k fs|k fs h Hc]; try discriminate Hloc.
  - by apply rv_set_absorbs.
  - by apply rv_delete_absorbs.
  - by apply hash_set_all_absorbs.
  - by apply (hash_delete_all_absorbs fs s v h).
Qed.

Lemma local_is_merge s e s1 d v :
  sh_causal s = false → Inv s → Inv2 s →
  sh_keys s !! ev_key e = Some v → plain v → rv_merge v v = v →
  is_local e = true →
  step s e = (s1, Some d) → sh_ovf s1 = false →
  rv_merge v d = d ∧ plain d.
Proof.
  intros Hca HI HI2 Hk. exact (local_absorbs s e s1 d v Hca Hk (HI _ _ Hk) (HI2 _ _ Hk)).
Qed.

Lemma step_inv2 s e s1 od :
  step s e = (s1, od) → Inv s → Inv2 s → sh_ovf s1 = false → Inv2 s1.
Proof.
  intros Hstep HI HI2 Ho.
  destruct (step_cases _ _ _ _ Hstep) as [Hin|v r -> Hrun|v m Hin Hm].
  - done.
  - pose proof (local_run_op _ _ _ _ Hrun) as Hop. change (sh_ovf r.1 = false) in Ho.
    apply (stored_put _ _ s _ _ _ HI2 (lo_keys _ _ _ Hop)).
    + intros x. exact (now_ltb_mono s _ _ (lo_rid _ _ _ Hop) (lo_time _ _ _ Hop Ho)).
    + destruct (lo_ts _ _ _ Hop) as [->|S]; [exact (start_value_inv2 s e HI2)|].
      rewrite S. exact (stamp_ltb_irrefl _).
  - change (sh_ovf (clock_update s (rv_ts v)) = false) in Ho.
    destruct (clock_update_spec s (rv_ts v) Ho) as (Ht & _ & Hr & Hk).
    apply (stored_put _ _ s _ _ _ HI2 Hk);
      [intros x; apply (now_ltb_mono s (clock_update s (rv_ts v))); [done|lia]|].
    change (stamp_ltb (now (clock_update s (rv_ts v))) (rv_ts m) = false).
    apply stamp_nlt_of_time. unfold now; cbn [st_time]. rewrite Ht.
    destruct Hm as [->|(l & Hl & ->)]; [lia|].
    cbn [rv_merge rv_ts]. rewrite stamp_merge_time. pose proof (HI _ _ Hl) as [Hb _]. lia.
Qed.

Lemma step_local_none s e s1 : is_local e = true → step s e = (s1, None) → s1 = s.
Proof.
  intros Hloc Hstep. remember None as od eqn:Hod.
  destruct (step_cases _ _ _ _ Hstep) as [|v r _ _|v m Hin _]; [done|discriminate Hod|].
  by destruct e.
Qed.

Lemma record_post_local x c r e : record_post x c r = Some e → is_local e = true.
Proof.
  unfold record_post. destruct r; [..|done]; destruct c as [k v nx xx|k|k v|k fs|k fs]; cbn;
    try (by intros [= <-]).
  (* APPEND records the string of the post-state *)
  all: by destruct (x !! k) as [[s|h]|]; intros [= <-].
Qed.

Lemma node_exec_cases n c n1 r od :
  node_exec n c = (n1, r, od) →
  (n_sh n1 = n_sh n ∧ n_hist n1 = n_hist n ∧ od = None) ∨
  ∃ e s1 d x1, is_local e = true ∧ step (n_sh n) e = (s1, Some d) ∧
    n1 = Node x1 s1 (hist_push (n_hist n) (ev_key e) d) (n_glue_fail n) ∧ od = Some (ev_key e, d).
Proof.
  unfold node_exec. destruct (xexec (n_x n) c) as [x1 r1].
  destruct (record_post x1 c r1) as [e|] eqn:Hrec; [|intros [= <- _ <-]; by left].
  pose proof (record_post_local _ _ _ _ Hrec) as Hloc.
  destruct (step (n_sh n) e) as [s1 [d|]] eqn:Hstep; intros [= <- _ <-].
  - right. by exists e, s1, d, x1.
  - left. by rewrite (step_local_none _ _ _ Hloc Hstep).
Qed.

Lemma insert_nodes (P : nat → node → Prop) (c : list node) j n1 :
  (∀ i n, c !! i = Some n → i ≠ j → P i n) → P j n1 → ∀ i n, <[ j := n1 ]> c !! i = Some n → P i n.
Proof.
  intros Hc H1 i n [(<- & <- & _)|[Hne Hi]]%list_lookup_insert_Some; [done|]. apply Hc; [done|congruence].
Qed.

Definition good (U : stamp → option lww) (K : list N → N) (k : list N) (d : rvalue) : Prop :=
  in_class U (K k) d ∧ wf_value d.

Definition hist_of (n : node) (k : list N) : list rvalue := default [] (n_hist n !! k).

Definition NodeInv (n : node) : Prop :=
  sh_causal (n_sh n) = false ∧ Inv (n_sh n) ∧ Inv2 (n_sh n) ∧
  ∀ k, sh_keys (n_sh n) !! k = fold_merge (hist_of n k).

Lemma NodeInv_init rid : NodeInv (node_init rid).
Proof.
  split; [done|]. split; [apply stored_init|]. split; [apply stored_init|].
  intros k. unfold hist_of, node_init; simpl. by rewrite !lookup_empty.
Qed.

Lemma hist_of_push n k d k' x s b :
  hist_of (Node x s (hist_push (n_hist n) k d) b) k' =
  if decide (k = k') then hist_of n k ++ [d] else hist_of n k'.
Proof.
  unfold hist_of, hist_push; simpl. destruct (decide (k = k')) as [->|Hne].
  - by rewrite lookup_insert.
  - by rewrite lookup_insert_ne.
Qed.

Lemma NodeInv_step n e s1 od x h b :
  NodeInv n → wf_event e → step (n_sh n) e = (s1, od) → sh_ovf s1 = false →
  (∀ k, sh_keys s1 !! k = fold_merge (hist_of (Node x s1 h b) k)) → NodeInv (Node x s1 h b).
Proof.
  intros (Hc & HI & HI2 & _) Hwf Hstep Ho Hst. split_and!; [|..|done].
  - simpl. by rewrite (step_causal _ _ _ _ Hstep).
  - by apply (step_ok _ _ _ _ Hstep).
  - by apply (step_inv2 _ _ _ _ Hstep).
Qed.

Lemma node_deliver_shape n k d :
  ∃ x b, node_deliver n k d = Node x (step (n_sh n) (ERemote k d)).1 (hist_push (n_hist n) k d) b.
Proof.
  unfold node_deliver. destruct (step _ _) as [s1 od]. simpl.
  destruct (sh_keys s1 !! k); [destruct (materialise _ _ _)|]; eauto.
Qed.

Section nodes.
  Context (U : stamp → option lww) (K : list N → N).
  Hypothesis HK : ∀ k, K k = 0 ∨ K k = 5.

  Definition hist_good (n : node) : Prop := ∀ k, Forall (good U K k) (hist_of n k).

  Lemma good_forall_class k l : Forall (good U K k) l → Forall (in_class U (K k)) l.
  Proof. intros H. eapply Forall_impl; [exact H|]. by intros ? [? ?]. Qed.

  Lemma node_deliver_inv n k d :
    NodeInv n → hist_good (node_deliver n k d) → sh_ovf (n_sh (node_deliver n k d)) = false →
    NodeInv (node_deliver n k d).
  Proof.
    intros HN Hg Ho. destruct (node_deliver_shape n k d) as (x1 & b1 & E). rewrite E in *. clear E.
    destruct (step (n_sh n) (ERemote k d)) as [s1 od] eqn:Hstep. simpl in Ho |- *.
    assert (Hgd : good U K k d).
    { specialize (Hg k). rewrite hist_of_push, decide_True in Hg by done.
      apply Forall_app in Hg as [_ Hg]. by inversion Hg. }
    apply (NodeInv_step n (ERemote k d) _ _ _ _ _ HN (proj2 Hgd) Hstep Ho).
    destruct HN as (_ & _ & _ & Hst).
    intros k'. rewrite hist_of_push. simpl. destruct (decide (k = k')) as [<-|Hne].
    - pose proof (step_remote_stored (n_sh n) k d) as Hk. rewrite Hstep in Hk.
      by rewrite fold_merge_push, <- Hst.
    - rewrite (step_other _ _ _ _ k' Hstep) by (simpl; congruence). apply Hst.
  Qed.

  Lemma node_exec_inv n c n1 r od :
    node_exec n c = (n1, r, od) → NodeInv n → hist_good n1 → sh_ovf (n_sh n1) = false → NodeInv n1.
  Proof.
    intros Hex HN Hg Ho.
    destruct (node_exec_cases _ _ _ _ _ Hex) as [(Es & Eh & _)|(e & s1 & d & x1 & Hloc & Hstep & -> & _)].
    { unfold NodeInv, hist_of. by rewrite Es, Eh. }
    apply (NodeInv_step n _ _ _ _ _ _ HN (is_local_wf e Hloc) Hstep Ho). destruct HN as (Hc & HI & HI2 & Hst).
    intros k'. rewrite hist_of_push. simpl. destruct (decide (ev_key e = k')) as [<-|Hne].
    - (* the stored value is d, which absorbs what was stored before *)
      rewrite (step_stored _ _ _ _ Hstep : _ !! ev_key e = _), fold_merge_push, <- Hst. f_equal.
      destruct (sh_keys (n_sh n) !! ev_key e) as [v|] eqn:Hcur; [|done]. symmetry.
      assert (Hcls : in_class U (K (ev_key e)) v).
      { apply (fold_merge_in_class U _ (HK _) (hist_of n (ev_key e))); [|by rewrite <- Hst].
        apply good_forall_class. specialize (Hg (ev_key e)).
        rewrite hist_of_push, decide_True in Hg by done. by apply Forall_app in Hg as [Hg _]. }
      eapply (local_is_merge (n_sh n) e s1 d); eauto; [apply Hcls|by apply (class_idem U (K (ev_key e)))].
    - rewrite (step_other _ _ _ _ k' Hstep) by (apply not_eq_sym, Hne). apply Hst.
  Qed.
End nodes.

(* along a run histories only grow and overflow is sticky, so what the final state
   satisfies every earlier one did *)
Definition node_le (a b : node) : Prop :=
  (∀ k, hist_of a k `prefix_of` hist_of b k) ∧ (sh_ovf (n_sh a) = true → sh_ovf (n_sh b) = true).

Lemma node_le_refl a : node_le a a.
Proof. split; [intros k; done|done]. Qed.
Lemma node_le_trans a b c : node_le a b → node_le b c → node_le a c.
Proof. intros [H1 H2] [H3 H4]. split; [intros k; etrans; eauto|auto]. Qed.

Lemma hist_push_prefix n k d k' x s b :
  hist_of n k' `prefix_of` hist_of (Node x s (hist_push (n_hist n) k d) b) k'.
Proof.
  rewrite hist_of_push. destruct (decide (k = k')) as [->|]; [by apply prefix_app_r|done].
Qed.

Lemma node_exec_le n c n1 r od : node_exec n c = (n1, r, od) → node_le n n1.
Proof.
  intros [(Es & Eh & _)|(e & s1 & d & x1 & _ & Hstep & -> & _)]%node_exec_cases.
  - unfold node_le, hist_of. by rewrite Es, Eh.
  - pose proof (step_ovf (n_sh n) e) as Hov. rewrite Hstep in Hov.
    split; [intros k; apply hist_push_prefix|exact Hov].
Qed.

Lemma node_deliver_le n k d : node_le n (node_deliver n k d).
Proof.
  destruct (node_deliver_shape n k d) as (x & b & ->).
  split; [intros k'; apply hist_push_prefix|apply step_ovf].
Qed.

Inductive node_step (n : node) : node → Prop :=
| node_same : node_step n n
| node_ran c n1 r od : node_exec n c = (n1, r, od) → node_step n n1
| node_got k d : node_step n (node_deliver n k d).

(* The three things a cluster event can be: nothing (no such node), a client command at a
   node, whose delta (if any) is appended to the log, or a delivery to a node. *)
Inductive cstep_spec (c : list node) (log : logt) : cev → list node → logt → Prop :=
| cstep_skip e : cstep_spec c log e c log
| cstep_client j n cmd n1 r od :
    c !! j = Some n → node_exec n cmd = (n1, r, od) →
    cstep_spec c log (CClient j cmd) (<[ j := n1 ]> c)
      (match od with Some (k, d) => log ++ [(j, k, d)] | None => log end)
| cstep_deliver j n k d :
    c !! j = Some n → cstep_spec c log (CDeliver j k d) (<[ j := node_deliver n k d ]> c) log.

Lemma cstep_cases c log e c1 l1 : cstep c log e = (c1, l1) → cstep_spec c log e c1 l1.
Proof.
  destruct e as [j cmd|j k d]; simpl;
    (destruct (c !! j) as [n|] eqn:Hj; [|intros [= <- <-]; apply cstep_skip]).
  - destruct (node_exec n cmd) as [[n1 r] od] eqn:Hx. intros [= <- <-]. by eapply cstep_client.
  - intros [= <- <-]. by apply cstep_deliver.
Qed.

Lemma cstep_nodes c log e c1 l1 : cstep c log e = (c1, l1) → Forall2 node_step c c1.
Proof.
  assert (Hsame : Forall2 node_step c c) by (apply Forall_Forall2_diag, Forall_true; constructor).
  assert (Hins : ∀ j n n1, c !! j = Some n → node_step n n1 → Forall2 node_step c (<[j:=n1]> c)).
  { intros j n n1 Hj Hn. pose proof (Forall2_insert _ _ _ _ _ j Hsame Hn) as H.
    by rewrite (list_insert_id c j n Hj) in H. }
  intros [|j n cmd n1 r od Hj Hx|j n k d Hj]%cstep_cases; [done|..];
    (eapply Hins; [done|by econstructor]).
Qed.

Lemma cstep_log_mono c log e : ∃ ext, (cstep c log e).2 = log ++ ext.
Proof.
  destruct (cstep c log e) as [c1 l1] eqn:Hs. simpl.
  destruct (cstep_cases _ _ _ _ _ Hs) as [|j n cmd n1 r [[k d]|] _ _|]; [|by eexists|..];
    exists []; by rewrite app_nil_r.
Qed.

Lemma node_step_le n n1 : node_step n n1 → node_le n n1.
Proof.
  intros [|c m r od Hx|k d]; [apply node_le_refl|by eapply node_exec_le|apply node_deliver_le].
Qed.

Lemma node_step_inv U K (HK : ∀ k, K k = 0 ∨ K k = 5) n n1 :
  node_step n n1 → NodeInv n → hist_good U K n1 → sh_ovf (n_sh n1) = false → NodeInv n1.
Proof.
  intros [|cmd m r od Hx|k d] HN Hg Ho;
    [done|by eapply (node_exec_inv U K HK)|by apply (node_deliver_inv U K)].
Qed.

Lemma crun_le evs : ∀ c log cf lf i n0,
  crun c log evs = (cf, lf) → c !! i = Some n0 → ∃ nf, cf !! i = Some nf ∧ node_le n0 nf.
Proof.
  induction evs as [|e evs IH]; intros c log cf lf i n0 Hr Hi; simpl in Hr.
  - injection Hr as <- <-. eauto using node_le_refl.
  - destruct (cstep c log e) as [c1 l1] eqn:Hs.
    destruct (Forall2_lookup_l _ _ _ _ _ (cstep_nodes _ _ _ _ _ Hs) Hi) as (n1 & H1 & L1).
    destruct (IH _ _ _ _ _ _ Hr H1) as (nf & Hf & Lf). eauto using node_le_trans, node_step_le.
Qed.

Lemma cstep_lookup_back c log e c1 l1 i n1 :
  cstep c log e = (c1, l1) → c1 !! i = Some n1 → ∃ n0, c !! i = Some n0.
Proof.
  intros Hs Hi. destruct (Forall2_lookup_r _ _ _ _ _ (cstep_nodes _ _ _ _ _ Hs) Hi) as (n0 & H0 & _).
  eauto.
Qed.

Lemma cluster_init_lookup n i n0 : cluster_init n !! i = Some n0 → n0 = node_init (N.of_nat (S i)).
Proof.
  unfold cluster_init. rewrite list_lookup_fmap. destruct (seq 0 n !! i) as [m|] eqn:Hs; [|done].
  apply lookup_seq in Hs as [-> _]. by intros [= <-].
Qed.

Section cluster.
  Context (U : stamp → option lww) (K : list N → N).
  Hypothesis HK : ∀ k, K k = 0 ∨ K k = 5.

  Definition final_ok (c : list node) : Prop :=
    ∀ i ni, c !! i = Some ni → hist_good U K ni ∧ sh_ovf (n_sh ni) = false.

  Lemma node_le_good a b : node_le a b → hist_good U K b → sh_ovf (n_sh b) = false →
    hist_good U K a ∧ sh_ovf (n_sh a) = false.
  Proof.
    intros [Hp Ho] Hg Hb. split.
    - intros k. destruct (Hp k) as [ext E]. specialize (Hg k). rewrite E in Hg. by apply Forall_app in Hg as [? _].
    - exact (sticky_false _ _ Ho Hb).
  Qed.

  Lemma crun_inv evs : ∀ c0 log0 c log,
    crun c0 log0 evs = (c, log) →
    (∀ i n0, c0 !! i = Some n0 → NodeInv n0) →
    final_ok c →
    ∀ i ni, c !! i = Some ni → NodeInv ni.
  Proof.
    induction evs as [|e evs IH]; intros c0 log0 c log Hr H0 Hf; simpl in Hr.
    - injection Hr as <- <-. exact H0.
    - destruct (cstep c0 log0 e) as [c1 l1] eqn:Hs.
      apply (IH c1 l1 c log Hr); [|exact Hf].
      intros i n1 Hi1.
      (* what the final state says about n1 *)
      destruct (crun_le _ _ _ _ _ _ _ Hr Hi1) as (nf & Hfi & Lf).
      destruct (Hf i nf Hfi) as [Hgf Hof].
      destruct (node_le_good _ _ Lf Hgf Hof) as [Hg1 Ho1].
      destruct (Forall2_lookup_r _ _ _ _ _ (cstep_nodes _ _ _ _ _ Hs) Hi1) as (n0 & Hi0 & Hn).
      eapply (node_step_inv U K HK); eauto.
  Qed.

  Lemma cluster_init_inv n i n0 : cluster_init n !! i = Some n0 → NodeInv n0.
  Proof. intros ->%cluster_init_lookup. apply NodeInv_init. Qed.

  Theorem sec_lemma n evs c log i j ni nj k :
    crun (cluster_init n) [] evs = (c, log) → final_ok c →
    c !! i = Some ni → c !! j = Some nj →
    same_set (hist_of ni k) (hist_of nj k) →
    sh_keys (n_sh ni) !! k = sh_keys (n_sh nj) !! k.
  Proof.
    intros Hr Hf Hi Hj Hs.
    pose proof (crun_inv evs _ _ _ _ Hr (cluster_init_inv n) Hf) as Hinv.
    destruct (Hinv i ni Hi) as (_ & _ & _ & Si). destruct (Hinv j nj Hj) as (_ & _ & _ & Sj).
    rewrite Si, Sj.
    apply (fold_merge_same_set U (K k) (HK k)); [| |exact Hs].
    - apply good_forall_class. apply (Hf i ni Hi).
    - apply good_forall_class. apply (Hf j nj Hj).
  Qed.

End cluster.

Definition reg_of (v : rvalue) : option lww := match rv_crdt v with CLww r => Some r | _ => None end.

Lemma fold_lww_max xs : ∀ x r0,
  reg_of x = Some r0 → Forall (λ d, ∃ r, reg_of d = Some r) xs →
  ∃ r, reg_of (fold_left rv_merge xs x) = Some r ∧
       (∃ d, In d (x :: xs) ∧ reg_of d = Some r) ∧
       ∀ d r', In d (x :: xs) → reg_of d = Some r' → stamp_ltb (lw_ts r) (lw_ts r') = false.
Proof.
  induction xs as [|a xs IH]; intros x r0 Hx Hxs; simpl.
  - exists r0. split; [done|]. split; [exists x; split; [by left|done]|].
    intros d r' [<-|[]] Hr. rewrite Hx in Hr. injection Hr as <-. apply stamp_ltb_irrefl.
  - inversion Hxs as [|? ? [ra Ha] Hxs']; subst.
    assert (Hm : reg_of (rv_merge x a) = Some (lww_merge r0 ra)).
    { unfold reg_of in *. unfold rv_merge, merge_with_ts; simpl.
      destruct (rv_crdt x); try discriminate Hx. destruct (rv_crdt a); try discriminate Ha.
      injection Hx as ->. injection Ha as ->. done. }
    destruct (IH (rv_merge x a) _ Hm Hxs') as (r & Hr & (d & Hd & Hdr) & Hmax).
    (* the winner of the rest is not below the merged head, which is not below x or a *)
    pose proof (Hmax _ _ (or_introl eq_refl) Hm) as Hge. destruct (lww_merge_ub r0 ra) as [U0 Ua].
    exists r. split; [done|]. split.
    + destruct Hd as [<-|Hd]; [|exists d; split; [right; by right|done]].
      rewrite Hm in Hdr. injection Hdr as <-.
      apply (lww_merge_ind (λ r, ∃ d, In d (x :: a :: xs) ∧ reg_of d = Some r)); [exists x|exists a]; simpl; auto.
    + intros d' r' [<-|[<-|Hd']] Hr'; [| |apply (Hmax d'); [by right|done]].
      * rewrite Hx in Hr'. injection Hr' as <-. by eapply stamp_ltb_false_trans.
      * rewrite Ha in Hr'. injection Hr' as <-. by eapply stamp_ltb_false_trans.
Qed.

Theorem lww_winner_lemma (U : stamp → option lww) l v :
  Forall (in_class U 0) l → fold_merge l = Some v →
  ∃ r, reg_of v = Some r ∧ (∃ d, In d l ∧ reg_of d = Some r) ∧
       ∀ d r', In d l → reg_of d = Some r' → stamp_ltb (lw_ts r) (lw_ts r') = false.
Proof.
  intros Hl Hf. destruct l as [|x xs]; [done|]. injection Hf as <-.
  assert (Hreg : ∀ d, in_class U 0 d → ∃ r, reg_of d = Some r).
  { intros d (Hk & _). unfold reg_of. destruct (rv_crdt d); try discriminate Hk. eauto. }
  inversion Hl as [|? ? Hx Hxs]; subst.
  destruct (Hreg x Hx) as [r0 Hr0].
  apply (fold_lww_max xs x r0 Hr0). eapply Forall_impl; [exact Hxs|]. exact Hreg.
Qed.

(* a read, as data without map internals: (0,[]) nothing, (1,[(s,s)]) string s, (2,fields) hash *)
Definition showx (r : xread) : N * list (list N * list N) :=
  match r with RdNone => (0, []) | RdStr s => (1, [(s, s)]) | RdHash h => (2, map_to_list h) end.

Definition kS : list N := [115].   (* "s" *)
Definition kH : list N := [104].   (* "h" *)

Definition ex_evs6 : list cev :=
  [CClient 0 (CSet kS [97] false false); CClient 1 (CSet kS [98] false false)].
Definition ex_d0 : rvalue := RV (CLww (Lww (Some [97]) (Stamp 1 1) false)) None None (Stamp 1 1) None.
Definition ex_d1 : rvalue := RV (CLww (Lww (Some [98]) (Stamp 1 2) false)) None None (Stamp 1 2) None.
Definition ex_deliveries : list cev :=
  [CDeliver 1 kS ex_d0; CDeliver 0 kS ex_d1; CDeliver 2 kS ex_d1; CDeliver 2 kS ex_d0; CDeliver 2 kS ex_d1].
Definition ex_U (st : stamp) : option lww :=
  if bool_decide (st = Stamp 1 1) then Some (Lww (Some [97]) (Stamp 1 1) false)
  else if bool_decide (st = Stamp 1 2) then Some (Lww (Some [98]) (Stamp 1 2) false) else None.

Lemma ex_run6 :
  let '(c, log) := crun (cluster_init 3) [] (ex_evs6 ++ ex_deliveries) in
  log = [(0%nat, kS, ex_d0); (1%nat, kS, ex_d1)] ∧
  map (λ n, hist_of n kS) c = [[ex_d0; ex_d1]; [ex_d1; ex_d0]; [ex_d1; ex_d0; ex_d1]] ∧
  map (λ n, showx (serve n kS)) c = [(1, [([98],[98])]); (1, [([98],[98])]); (1, [([98],[98])])] ∧
  map (λ n, bool_decide (sh_keys (n_sh n) !! kS = sh_keys (n_sh (default (node_init 0) (c !! 0%nat))) !! kS)) c = [true; true; true].
Proof. vm_compute. done. Qed.

Lemma ex_good6 : Forall (good ex_U (λ _, 0) kS) [ex_d0; ex_d1].
Proof.
  repeat constructor; try done; simpl; lia.
Qed.

(* Known finding C06-expiry: record_write OVERWRITES expiry_ms while merge takes the MAXIMUM, so
   a later SET without (or with a shorter) TTL leaves the writer and its peers with different
   expiry although both have incorporated the same two deltas. *)
Lemma expiry_witness :
  let '(s1, ds) := run (shard_init 1 false) [EWrite kS [97] (Some 5000); EWrite kS [98] None] in
  let '(s2, _) := run (shard_init 2 false) (map (ERemote kS) ds) in
  option_map rv_exp (sh_keys s1 !! kS) = Some None ∧
  option_map rv_exp (sh_keys s2 !! kS) = Some (Some 5000).
Proof. vm_compute. done. Qed.

(* Known finding C06-del-nonstring: DEL of a hash key removes it from the executor of the node
   that ran the command, but the replication state (and hence every peer) keeps the live hash:
   same deltas incorporated everywhere, different answers. *)
Definition del_evs : list cev :=
  [CClient 0 (CHSet kH [([102], [118])])].
Lemma del_nonstring_witness :
  let '(c1, log1) := crun (cluster_init 2) [] del_evs in
  match log1 with
  | [(_, _, d)] =>
      let '(c2, log2) := crun c1 log1 [CDeliver 1 kH d; CClient 0 (CDel kH)] in
      match log2 with
      | [_; (_, _, d2)] =>
          let '(c3, _) := crun c2 log2 [CDeliver 1 kH d2] in
          map (λ n, showx (serve n kH)) c3 = [(0, []); (2, [([102], [118])])] ∧
          map (λ n, showx (state_says n kH)) c3 = [(2, [([102], [118])]); (2, [([102], [118])])]
      | _ => False
      end
  | _ => False
  end.
Proof. vm_compute. done. Qed.

(* Known finding C06-type-change: a remote hash delta arriving over a local string cannot be
   materialised (the executor answers WRONGTYPE; a debug build asserts), so the node keeps
   serving the string while its replication state holds the hash. *)
Lemma type_change_witness :
  let '(c1, log1) := crun (cluster_init 2) []
     [CClient 0 (CHSet kS [([102], [118])]); CClient 0 (CHSet kS [([103], [119])]); CClient 1 (CSet kS [97] false false)] in
  match log1 with
  | [_; (_, _, dh); _] =>
      let '(c2, _) := crun c1 log1 [CDeliver 1 kS dh] in
      map n_glue_fail c2 = [false; true] ∧
      map (λ n, showx (serve n kS)) c2 = [(2, [([102], [118]); ([103], [119])]); (1, [([97], [97])])] ∧
      map (λ n, showx (state_says n kS)) c2 = [(2, [([102], [118]); ([103], [119])]); (2, [([102], [118]); ([103], [119])])]
  | _ => False
  end.
Proof. vm_compute. done. Qed.
