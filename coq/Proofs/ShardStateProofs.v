(* Proofs about Model/ShardState.v: the clock dominates every stamp stored or seen,
   every locally issued stamp is strictly above everything seen (also after recovery),
   and a fresh write supersedes every value built from seen stamps.
   What the local value operations have in common is stated once ([local_op]), and so is what
   a step can be ([step_cases], [step_emits]); the theorems about steps and runs argue from
   these. *)
From stdpp Require Import gmap.
From Coq Require Import NArith Lia.
From RV Require Import Lib.Hex Model.Crdt Proofs.CrdtProofs Model.ShardState.
Local Open Scope N_scope.

Lemma tick_spec s :
  sh_ovf (tick s) = false →
  sh_time (tick s) = sh_time s + 1 ∧ sh_ovf s = false ∧
  sh_rid (tick s) = sh_rid s ∧ sh_keys (tick s) = sh_keys s ∧ sh_causal (tick s) = sh_causal s.
Proof.
  unfold tick. destruct (sh_time s =? U64MAX); simpl; intros H.
  - apply orb_false_iff in H as [_ H]. discriminate.
  - apply orb_false_iff in H as [H _]. auto.
Qed.

Lemma clock_update_spec s o :
  sh_ovf (clock_update s o) = false →
  sh_time (clock_update s o) = N.max (sh_time s) (st_time o) + 1 ∧ sh_ovf s = false ∧
  sh_rid (clock_update s o) = sh_rid s ∧ sh_keys (clock_update s o) = sh_keys s.
Proof.
  unfold clock_update. destruct (N.max (sh_time s) (st_time o) =? U64MAX); simpl; intros H.
  - apply orb_false_iff in H as [_ H]. discriminate.
  - apply orb_false_iff in H as [H _]. auto.
Qed.

Lemma tick_fields s :
  sh_rid (tick s) = sh_rid s ∧ sh_keys (tick s) = sh_keys s ∧ sh_causal (tick s) = sh_causal s.
Proof. unfold tick. by destruct (_ =? _). Qed.
Lemma clock_update_fields s o :
  sh_rid (clock_update s o) = sh_rid s ∧ sh_keys (clock_update s o) = sh_keys s ∧
  sh_causal (clock_update s o) = sh_causal s.
Proof. unfold clock_update. by destruct (_ =? _). Qed.

Lemma tick_after_le s : sh_ovf (tick s) = false → sh_time s ≤ sh_time (tick s).
Proof. intros H. destruct (tick_spec s H) as (-> & _). lia. Qed.

Lemma tick_ovf s : sh_ovf s = true → sh_ovf (tick s) = true.
Proof. intros H. unfold tick. destruct (_ =? _); simpl; by rewrite H. Qed.
Lemma clock_update_ovf s o : sh_ovf s = true → sh_ovf (clock_update s o) = true.
Proof. intros H. unfold clock_update. destruct (_ =? _); simpl; by rewrite H. Qed.

Lemma sticky_false (b b' : bool) : (b = true → b' = true) → b' = false → b = false.
Proof. destruct b; [|done]. intros H Hb. by rewrite H in Hb. Qed.

Lemma crdt_times_le_mono c a b : a ≤ b → crdt_times_le c a → crdt_times_le c b.
Proof.
  intros Hab. destruct c; simpl; try done.
  - lia.
  - intros H. eapply map_Forall_impl; [exact H|]. simpl. intros. lia.
Qed.
Lemma times_le_mono v a b : a ≤ b → times_le v a → times_le v b.
Proof. intros Hab [H1 H2]. split; [lia|]. eapply crdt_times_le_mono; eauto. Qed.

Lemma times_le_new rid t : times_le (rv_new rid) t.
Proof. split; simpl; lia. Qed.

Lemma crdt_times_le_insert c f r b t :
  crdt_times_le c b → b ≤ t → st_time (lw_ts r) ≤ t →
  crdt_times_le (CHash (<[ f := r ]> (as_hash c))) t.
Proof.
  intros Hc Hb Hr. apply map_Forall_insert_2; [done|].
  destruct c; try apply map_Forall_empty. exact (crdt_times_le_mono (CHash _) _ _ Hb Hc).
Qed.

Lemma stamp_lt_of_time a b : st_time a < st_time b → stamp_ltb a b = true.
Proof. intros H. apply stamp_ltb_spec. by left. Qed.

Lemma stamp_merge_time a b : st_time (stamp_merge a b) = N.max (st_time a) (st_time b).
Proof.
  unfold stamp_merge. destruct (stamp_ltb a b) eqn:E.
  - apply stamp_ltb_spec in E. lia.
  - apply not_true_iff_false in E. rewrite stamp_ltb_spec in E. lia.
Qed.

Lemma stamp_nlt_of_time a b : st_time a < st_time b → stamp_ltb b a = false.
Proof. intros H. by apply stamp_ltb_asym, stamp_lt_of_time. Qed.

Lemma stamp_merge_ge a b : stamp_ltb b a = false → stamp_merge a b = b.
Proof.
  intros H. unfold stamp_merge. destruct (stamp_ltb a b) eqn:E; [done|].
  by apply stamp_total_false.
Qed.

Lemma lww_merge_ind (P : lww → Prop) a b : P a → P b → P (lww_merge a b).
Proof. by destruct (lww_merge_cases a b) as [-> | ->]. Qed.

Lemma lww_merge_ub a b :
  stamp_ltb (lw_ts (lww_merge a b)) (lw_ts a) = false ∧ stamp_ltb (lw_ts (lww_merge a b)) (lw_ts b) = false.
Proof.
  unfold lww_merge. destruct (stamp_ltb (lw_ts a) (lw_ts b)) eqn:E;
    auto using stamp_ltb_irrefl, stamp_ltb_asym.
Qed.

Lemma hash_merge_Forall (P : lww → Prop) ha hb :
  map_Forall (λ _, P) ha → map_Forall (λ _, P) hb → map_Forall (λ _, P) (hash_merge ha hb).
Proof. intros Ha Hb f r [H|H]%hash_merge_pick; [by apply (Ha f)|by apply (Hb f)]. Qed.

Lemma try_merge_times_le a b m t :
  try_merge a b = Some m → crdt_times_le a t → crdt_times_le b t → crdt_times_le m t.
Proof.
  destruct a, b; try discriminate; intros [= <-]; try done.
  - apply (lww_merge_ind (λ r, st_time (lw_ts r) ≤ t)).
  - apply (hash_merge_Forall (λ r, st_time (lw_ts r) ≤ t)).
Qed.

Lemma rv_merge_times_le a b t : times_le a t → times_le b t → times_le (rv_merge a b) t.
Proof.
  intros [Ha1 Ha2] [Hb1 Hb2]. split; simpl.
  - rewrite stamp_merge_time. lia.
  - unfold merge_with_ts. destruct (try_merge _ _) eqn:E; [by eapply try_merge_times_le|].
    by destruct (stamp_ltb _ _).
Qed.

Lemma rv_merge_wf a b : wf_value a → wf_value b → wf_value (rv_merge a b).
Proof.
  intros Ha Hb. unfold wf_value.
  assert (E : st_time (rv_ts (rv_merge a b)) = N.max (st_time (rv_ts a)) (st_time (rv_ts b)))
    by apply stamp_merge_time.
  rewrite E. apply rv_merge_times_le; (eapply times_le_mono; [|eassumption]); lia.
Qed.

(* A register stamped above everything in [c] wins the merge from either side (when the
   kinds differ the outer stamps decide, so these have to be ordered the same way). *)
Lemma merge_lww_newer c r ta tb b :
  crdt_times_le c b → b < st_time (lw_ts r) → stamp_ltb ta tb = true →
  merge_with_ts c (CLww r) ta tb = CLww r ∧ merge_with_ts (CLww r) c tb ta = CLww r.
Proof.
  intros Hc Hr Hlt. unfold merge_with_ts. rewrite Hlt, (stamp_ltb_asym _ _ Hlt).
  destruct c as [r0| | | | |]; try done. simpl in *. unfold lww_merge.
  assert (H : stamp_ltb (lw_ts r0) (lw_ts r) = true) by (apply stamp_lt_of_time; lia).
  by rewrite H, (stamp_ltb_asym _ _ H).
Qed.

(* What rv_set, rv_delete, rv_hash_set, rv_hash_delete and the two iterations have in common;
   [r] is the pair they return when run on the value [v] in the state [s].  Only the clock
   moves; the value stays bounded by it; and unless nothing happened at all the value's outer
   stamp is the new clock. *)
Record local_op (s : shard) (v : rvalue) (r : shard * rvalue) : Prop := {
  lo_keys : sh_keys r.1 = sh_keys s;
  lo_rid : sh_rid r.1 = sh_rid s;
  lo_causal : sh_causal r.1 = sh_causal s;
  lo_ovf : sh_ovf s = true → sh_ovf r.1 = true;
  lo_time : sh_ovf r.1 = false → sh_time s ≤ sh_time r.1;
  lo_le : sh_ovf r.1 = false → times_le v (sh_time s) → times_le r.2 (sh_time r.1);
  lo_ts : r = (s, v) ∨ rv_ts r.2 = now r.1
}.

Lemma local_op_refl s v : local_op s v (s, v).
Proof. by split; auto. Qed.

Lemma local_op_trans s v r r' : local_op s v r → local_op r.1 r.2 r' → local_op s v r'.
Proof.
  intros [K R C O T L S] [K' R' C' O' T' L' S'].
  pose proof (sticky_false _ _ O') as Hov.
  split; try congruence; auto.
  - intros H. specialize (T' H). specialize (T (Hov H)). lia.
  - destruct S' as [->|S']; [|by right]. by destruct r.
Qed.

Lemma local_op_tick s v v' :
  rv_ts v' = now (tick s) →
  (sh_time (tick s) = sh_time s + 1 → crdt_times_le (rv_crdt v) (sh_time s) →
   crdt_times_le (rv_crdt v') (sh_time (tick s))) →
  local_op s v (tick s, v').
Proof.
  intros Hts Hle. destruct (tick_fields s) as (R & K & C). split; simpl; auto using tick_ovf.
  - apply tick_after_le.
  - intros Ho [_ Hv]. destruct (tick_spec s Ho) as (Ht & _).
    split; [rewrite Hts; simpl; lia|auto].
Qed.

Lemma local_op_restamp s v : local_op s v (s, RV (rv_crdt v) (rv_vc v) (rv_exp v) (now s) (rv_rf v)).
Proof. split; auto. intros _ [_ Hv]. split; [simpl; lia|done]. Qed.

Lemma local_op_vc s v s' v' vc :
  local_op s v (s', v') → rv_ts v' = now s' → local_op s v (set_vc s' vc, v').
Proof. intros [K R C O T L S] Hts. by split; auto. Qed.

Lemma rv_set_local s v val e :
  local_op s v ((rv_set s v val).1, with_exp (rv_set s v val).2 e).
Proof.
  unfold rv_set. destruct (sh_causal (tick s)); simpl; [apply local_op_vc; [|done]|];
    (apply local_op_tick; [done|]; intros Ht _; simpl; lia).
Qed.

Lemma rv_delete_local s v : local_op s v (rv_delete s v).
Proof.
  unfold rv_delete. destruct (rv_crdt v); try apply local_op_refl.
  apply local_op_tick; [done|]. intros Ht _. simpl. lia.
Qed.

Lemma rv_hash_set_local s v f x : local_op s v (rv_hash_set s v f x).
Proof.
  apply local_op_tick; [done|]. intros Ht Hv.
  eapply crdt_times_le_insert; [exact Hv|lia|simpl; lia].
Qed.

Lemma rv_hash_delete_local s v f : local_op s v (rv_hash_delete s v f).
Proof.
  unfold rv_hash_delete. destruct (rv_crdt v) as [| | | | |h] eqn:E;
    try (rewrite <- E; apply local_op_restamp).
  destruct (h !! f); [|rewrite <- E; apply local_op_restamp].
  apply local_op_tick; [done|]. rewrite E. intros Ht Hv.
  eapply (crdt_times_le_insert (CHash h)); [exact Hv|lia|simpl; lia].
Qed.

Lemma hash_set_all_local fs : ∀ s v, local_op s v (hash_set_all s v fs).
Proof.
  induction fs as [|[f x] fs IH]; intros s v; [apply local_op_refl|].
  eapply local_op_trans; [apply (rv_hash_set_local s v f x)|apply IH].
Qed.

Lemma hash_delete_all_local fs : ∀ s v, local_op s v (hash_delete_all s v fs).
Proof.
  induction fs as [|f fs IH]; intros s v; [apply local_op_refl|].
  pose proof (rv_hash_delete_local s v f) as H. cbn [hash_delete_all].
  destruct (rv_hash_delete s v f) as [s1 v1]. eapply local_op_trans; [exact H|apply IH].
Qed.

Lemma hash_set_all_ovf fs : ∀ s v, sh_ovf s = true → sh_ovf (hash_set_all s v fs).1 = true.
Proof. intros s v. apply (lo_ovf _ _ _ (hash_set_all_local fs s v)). Qed.
Lemma hash_delete_all_ovf fs : ∀ s v, sh_ovf s = true → sh_ovf (hash_delete_all s v fs).1 = true.
Proof. intros s v. apply (lo_ovf _ _ _ (hash_delete_all_local fs s v)). Qed.

Lemma rv_set_lt s v val : sh_ovf (rv_set s v val).1 = false → sh_time s < sh_time (rv_set s v val).1.
Proof.
  unfold rv_set. intros Ho.
  assert (Ht : sh_ovf (tick s) = false) by (by destruct (sh_causal (tick s))).
  destruct (tick_spec s Ht) as (Htime & _). destruct (sh_causal (tick s)); simpl; lia.
Qed.

Lemma hash_set_all_lt fs s v : fs ≠ [] →
  sh_ovf (hash_set_all s v fs).1 = false → sh_time s < sh_time (hash_set_all s v fs).1.
Proof.
  destruct fs as [|[f x] fs]; [done|]. intros _. cbn [hash_set_all]. unfold rv_hash_set.
  set (v1 := RV _ _ _ _ _). intros Ho.
  pose proof (hash_set_all_local fs (tick s) v1) as Hop.
  destruct (tick_spec s (sticky_false _ _ (lo_ovf _ _ _ Hop) Ho)) as (Ht & _).
  pose proof (lo_time _ _ _ Hop Ho) as T. simpl in T. lia.
Qed.

(* from here on the operations are used through what is proved about them above *)
Arguments rv_set : simpl never.
Arguments rv_delete : simpl never.
Arguments rv_hash_set : simpl never.
Arguments rv_hash_delete : simpl never.
Arguments hash_set_all : simpl never.
Arguments hash_delete_all : simpl never.
Arguments tick : simpl never.
Arguments clock_update : simpl never.
Arguments put : simpl never.

(* The invariants [Inv] and [WfInv] below are instances, up to conversion. *)
Definition stored (s : shard) (P : rvalue → Prop) : Prop := ∀ k v, sh_keys s !! k = Some v → P v.

Lemma stored_init rid c P : stored (shard_init rid c) P.
Proof. exact (map_Forall_empty _). Qed.

Lemma stored_put (P Q : rvalue → Prop) s s' k v :
  stored s P → sh_keys s' = sh_keys s → (∀ x, P x → Q x) → Q v → stored (put s' k v) Q.
Proof.
  intros HP Hk HPQ Hv. apply (map_Forall_insert_2 (λ _, Q) _ k v Hv).
  rewrite Hk. intros k' x Hx. by apply HPQ, (HP k').
Qed.

Definition Inv (s : shard) : Prop :=
  ∀ k v, sh_keys s !! k = Some v → times_le v (sh_time s).

Definition WfInv (s : shard) : Prop := ∀ k v, sh_keys s !! k = Some v → wf_value v.

Lemma put_fields s k v :
  sh_time (put s k v) = sh_time s ∧ sh_ovf (put s k v) = sh_ovf s ∧ sh_rid (put s k v) = sh_rid s.
Proof. done. Qed.

Lemma put_lookup s k v : sh_keys (put s k v) !! k = Some v.
Proof. apply lookup_insert. Qed.

(* [ev_key] of Model/Cluster.v, which this file does not load *)
Definition key_of (e : event) : list N :=
  match e with
  | EWrite k _ _ | EDelete k | EHSet k _ | EHDel k _ | ERemote k _ | ERecover k _ => k
  end.

Definition fresh_value (s : shard) (e : event) : rvalue :=
  match e with
  | EHSet _ _ => RV (CHash ∅) None None (Stamp 0 (sh_rid s)) None
  | _ => rv_new (sh_rid s)
  end.
Definition start_value (s : shard) (e : event) : rvalue :=
  default (fresh_value s e) (sh_keys s !! key_of e).

Lemma start_value_stored s e v : sh_keys s !! key_of e = Some v → start_value s e = v.
Proof. unfold start_value. by intros ->. Qed.

Lemma fresh_value_zero s e :
  times_le (fresh_value s e) 0 ∧ st_rid (rv_ts (fresh_value s e)) = sh_rid s.
Proof. destruct e; (split; [split; simpl; [lia|]|done]); try lia. apply map_Forall_empty. Qed.

Lemma start_value_le s e : Inv s → times_le (start_value s e) (sh_time s).
Proof.
  intros HI. unfold start_value. destruct (sh_keys s !! key_of e) eqn:Hk; [by apply (HI _ _ Hk)|].
  eapply times_le_mono; [|apply fresh_value_zero]. lia.
Qed.

Lemma start_value_wf s e : WfInv s → wf_value (start_value s e).
Proof.
  intros HW. unfold start_value. destruct (sh_keys s !! key_of e) eqn:Hk; [by apply (HW _ _ Hk)|].
  eapply times_le_mono; [|apply fresh_value_zero]. lia.
Qed.

Inductive local_run (s : shard) (v : rvalue) : event → shard * rvalue → Prop :=
| lr_write k val exp :
    local_run s v (EWrite k val exp) ((rv_set s v val).1, with_exp (rv_set s v val).2 exp)
| lr_delete k : local_run s v (EDelete k) (rv_delete s v)
| lr_hset k fs : local_run s v (EHSet k fs) (hash_set_all s v fs)
| lr_hdel k fs h : rv_crdt v = CHash h → local_run s v (EHDel k fs) (hash_delete_all s v fs).

Lemma local_run_op s v e r : local_run s v e r → local_op s v r.
Proof.
  intros []; auto using rv_set_local, rv_delete_local, hash_set_all_local, hash_delete_all_local.
Qed.

Lemma local_run_input s v e r : local_run s v e r → ev_input e = None.
Proof. by intros []. Qed.

Lemma local_run_lt s v e r :
  local_run s v e r → is_write e = true → sh_ovf r.1 = false → sh_time s < sh_time r.1.
Proof.
  intros [k val exp|k|k fs|k fs h Hc] Hw; try discriminate Hw.
  - apply rv_set_lt.
  - apply hash_set_all_lt. by destruct fs.
Qed.

(* The three things a step can be: nothing (DEL or HDEL without a suitable value), a local
   operation whose result is stored and emitted, or a value from outside installed after the
   clock has been moved past its stamp (ERemote merges it with what is stored, ERecover does
   not). *)
Inductive step_spec (s : shard) (e : event) : shard → option rvalue → Prop :=
| step_idle : ev_input e = None → step_spec s e s None
| step_local v r :
    v = start_value s e → local_run s v e r →
    step_spec s e (put r.1 (key_of e) r.2) (Some r.2)
| step_input v m :
    ev_input e = Some v →
    m = v ∨ (∃ l, sh_keys s !! key_of e = Some l ∧ m = rv_merge l v) →
    step_spec s e (put (clock_update s (rv_ts v)) (key_of e) m) None.

Lemma step_cases s e s1 od : step s e = (s1, od) → step_spec s e s1 od.
Proof.
  destruct e as [k val exp|k|k fs|k fs|k v|k v]; cbn [step]; intros Hstep.
  - set (v0 := default _ _) in *. pose proof (lr_write s v0 k val exp) as Hrun.
    destruct (rv_set s v0 val) as [s' v1]. injection Hstep as <- <-.
    exact (step_local s (EWrite k val exp) v0 _ eq_refl Hrun).
  - destruct (sh_keys s !! k) as [v0|] eqn:Hk; [|injection Hstep as <- <-; by apply step_idle].
    pose proof (lr_delete s v0 k) as Hrun.
    destruct (rv_delete s v0) as [s' v1]. injection Hstep as <- <-.
    exact (step_local s (EDelete k) v0 _ (eq_sym (start_value_stored s (EDelete k) v0 Hk)) Hrun).
  - set (v0 := match sh_keys s !! k with Some v => v | None => _ end) in *.
    pose proof (lr_hset s v0 k fs) as Hrun.
    destruct (hash_set_all s v0 fs) as [s' v1]. injection Hstep as <- <-.
    exact (step_local s (EHSet k fs) v0 _ eq_refl Hrun).
  - destruct (sh_keys s !! k) as [v0|] eqn:Hk; [|injection Hstep as <- <-; by apply step_idle].
    destruct (rv_crdt v0) eqn:Hc; try (injection Hstep as <- <-; by apply step_idle).
    pose proof (lr_hdel s v0 k fs _ Hc) as Hrun.
    destruct (hash_delete_all s v0 fs) as [s' v1]. injection Hstep as <- <-.
    exact (step_local s (EHDel k fs) v0 _ (eq_sym (start_value_stored s (EHDel k fs) v0 Hk)) Hrun).
  - injection Hstep as <- <-. apply (step_input s (ERemote k v) v); [done|]. simpl.
    rewrite (proj1 (proj2 (clock_update_fields s (rv_ts v)))). destruct (sh_keys s !! k); eauto.
  - injection Hstep as <- <-. apply (step_input s (ERecover k v) v); auto.
Qed.

Lemma step_emits s e s1 d :
  step s e = (s1, Some d) →
  ∃ r, local_run s (start_value s e) e r ∧ s1 = put r.1 (key_of e) r.2 ∧ d = r.2.
Proof.
  intros Hstep. remember (Some d) as od eqn:Hod.
  destruct (step_cases _ _ _ _ Hstep) as [|v r -> Hrun|]; try discriminate Hod.
  injection Hod as <-. by exists r.
Qed.

Lemma step_stored s e s1 d : step s e = (s1, Some d) → sh_keys s1 !! key_of e = Some d.
Proof. intros (r & _ & -> & ->)%step_emits. apply put_lookup. Qed.

Lemma step_ovf s e : sh_ovf s = true → sh_ovf (step s e).1 = true.
Proof.
  intros Hs. destruct (step s e) as [s1 od] eqn:E.
  destruct (step_cases _ _ _ _ E) as [_|v r _ Hrun|v m _ _].
  - done.
  - exact (lo_ovf _ _ _ (local_run_op _ _ _ _ Hrun) Hs).
  - exact (clock_update_ovf s _ Hs).
Qed.

Lemma step_rid s e s1 od : step s e = (s1, od) → sh_rid s1 = sh_rid s.
Proof.
  intros Hstep. destruct (step_cases _ _ _ _ Hstep) as [_|v r _ Hrun|v m _ _].
  - done.
  - exact (lo_rid _ _ _ (local_run_op _ _ _ _ Hrun)).
  - apply clock_update_fields.
Qed.

Lemma step_causal s e s1 od : step s e = (s1, od) → sh_causal s1 = sh_causal s.
Proof.
  intros Hstep. destruct (step_cases _ _ _ _ Hstep) as [_|v r _ Hrun|v m _ _].
  - done.
  - exact (lo_causal _ _ _ (local_run_op _ _ _ _ Hrun)).
  - apply clock_update_fields.
Qed.

Lemma step_other s e s1 od k :
  step s e = (s1, od) → k ≠ key_of e → sh_keys s1 !! k = sh_keys s !! k.
Proof.
  intros Hstep Hne.
  destruct (step_cases _ _ _ _ Hstep) as [_|v r _ Hrun|v m _ _]; [done|..];
    unfold put, set_keys; simpl; rewrite lookup_insert_ne by done.
  - by rewrite (lo_keys _ _ _ (local_run_op _ _ _ _ Hrun)).
  - by rewrite (proj1 (proj2 (clock_update_fields s (rv_ts v)))).
Qed.

Lemma step_remote_stored s k d :
  sh_keys (step s (ERemote k d)).1 !! k =
  Some (match sh_keys s !! k with Some l => rv_merge l d | None => d end).
Proof. cbn [step fst]. by rewrite put_lookup, (proj1 (proj2 (clock_update_fields s _))). Qed.

Lemma step_time_mono s e s1 od : step s e = (s1, od) → sh_ovf s1 = false → sh_time s ≤ sh_time s1.
Proof.
  intros Hstep Ho. destruct (step_cases _ _ _ _ Hstep) as [_|v r _ Hrun|v m _ _].
  - done.
  - exact (lo_time _ _ _ (local_run_op _ _ _ _ Hrun) Ho).
  - change (sh_ovf (clock_update s (rv_ts v)) = false) in Ho.
    destruct (clock_update_spec s (rv_ts v) Ho) as (Ht & _).
    change (sh_time s ≤ sh_time (clock_update s (rv_ts v))). lia.
Qed.

Lemma step_ok s e s1 od :
  step s e = (s1, od) → Inv s → wf_event e → sh_ovf s1 = false →
  Inv s1 ∧ sh_ovf s = false ∧ sh_time s ≤ sh_time s1 ∧ sh_rid s1 = sh_rid s ∧
  (∀ v, ev_input e = Some v → times_le v (sh_time s1)) ∧
  (∀ d, od = Some d → times_le d (sh_time s1)).
Proof.
  intros Hstep HI Hwf Ho. unfold wf_event in Hwf.
  (* the three clauses in the middle need neither hypothesis *)
  enough (Inv s1 ∧ (∀ v, ev_input e = Some v → times_le v (sh_time s1)) ∧
          (∀ d, od = Some d → times_le d (sh_time s1))) as (A & B & C).
  { pose proof (step_ovf s e) as Hov. rewrite Hstep in Hov.
    split_and!; [done|exact (sticky_false _ _ Hov Ho)|by eapply step_time_mono|by eapply step_rid|done..]. }
  destruct (step_cases _ _ _ _ Hstep) as [Hin|v r -> Hrun|v m Hin Hm].
  - rewrite Hin. by split_and!.
  - pose proof (local_run_op _ _ _ _ Hrun) as Hop. rewrite (local_run_input _ _ _ _ Hrun).
    change (sh_ovf r.1 = false) in Ho.
    pose proof (lo_le _ _ _ Hop Ho (start_value_le s e HI)) as Hr.
    split_and!; [|done|by intros d [= <-]].
    apply (stored_put _ _ s _ _ _ HI (lo_keys _ _ _ Hop)); [|done].
    intros x. apply times_le_mono, (lo_time _ _ _ Hop Ho).
  - rewrite Hin in *. change (sh_ovf (clock_update s (rv_ts v)) = false) in Ho.
    destruct (clock_update_spec s (rv_ts v) Ho) as (Ht & _ & _ & Hk).
    assert (Hmono : ∀ x, times_le x (sh_time s) → times_le x (sh_time (clock_update s (rv_ts v))))
      by (intros x; apply times_le_mono; lia).
    assert (Hv : times_le v (sh_time (clock_update s (rv_ts v)))).
    { eapply times_le_mono; [|exact Hwf]. lia. }
    split_and!; [|by intros ? [= <-]|done].
    apply (stored_put _ _ s _ _ _ HI Hk Hmono). destruct Hm as [->|(l & Hl & ->)]; [done|].
    apply rv_merge_times_le; [|done]. apply Hmono, (HI _ _ Hl).
Qed.

Lemma step_inv s e s1 od :
  step s e = (s1, od) → Inv s → wf_event e → sh_ovf s1 = false → Inv s1.
Proof. intros Hstep HI Hwf Ho. apply (step_ok _ _ _ _ Hstep HI Hwf Ho). Qed.

Lemma step_issue s e s1 d :
  step s e = (s1, Some d) → is_write e = true → sh_ovf s1 = false →
  rv_ts d = now s1 ∧ sh_time s < sh_time s1.
Proof.
  intros (r & Hrun & -> & ->)%step_emits Hw Ho.
  pose proof (local_run_lt _ _ _ _ Hrun Hw Ho) as Hlt. split; [|exact Hlt].
  destruct (lo_ts _ _ _ (local_run_op _ _ _ _ Hrun)) as [->|S]; [simpl in Hlt; lia|exact S].
Qed.

Lemma run_ovf evs : ∀ s, sh_ovf s = true → sh_ovf (run s evs).1 = true.
Proof.
  induction evs as [|e evs IH]; intros s Hs; simpl; [done|].
  pose proof (step_ovf s e Hs) as H1. destruct (step s e) as [s1 od].
  specialize (IH s1 H1). destruct (run s1 evs) as [s2 ds]. done.
Qed.

Lemma run_app s evs1 evs2 :
  run s (evs1 ++ evs2) =
  let '(s1, d1) := run s evs1 in let '(s2, d2) := run s1 evs2 in (s2, d1 ++ d2).
Proof.
  revert s. induction evs1 as [|e evs1 IH]; intros s; simpl.
  - by destruct (run s evs2).
  - destruct (step s e) as [s1 od]. rewrite IH.
    destruct (run s1 evs1) as [s2 d1]. destruct (run s2 evs2) as [s3 d2]. by destruct od.
Qed.

Lemma in_opt_cons {A} (o : option A) l x :
  In x (match o with Some y => y :: l | None => l end) → o = Some x ∨ In x l.
Proof. destruct o; simpl; [intros [->|?]|]; auto. Qed.

Lemma run_ok evs : ∀ s s' ds,
  run s evs = (s', ds) → Inv s → Forall wf_event evs → sh_ovf s' = false →
  Inv s' ∧ sh_ovf s = false ∧ sh_time s ≤ sh_time s' ∧ sh_rid s' = sh_rid s ∧
  (∀ x, In x (inputs evs ++ ds) → times_le x (sh_time s')).
Proof.
  induction evs as [|e evs IH]; intros s s' ds Hrun HI Hwf Ho; simpl in Hrun.
  - injection Hrun as <- <-. split_and!; auto; try lia. intros x [].
  - destruct (step s e) as [s1 od] eqn:Hs. destruct (run s1 evs) as [s2 ds2] eqn:Hr.
    injection Hrun as <- <-. inversion Hwf as [|? ? Hwe Hwr]; subst.
    pose proof (run_ovf evs s1) as Hov. rewrite Hr in Hov.
    destruct (step_ok s e s1 od Hs HI Hwe (sticky_false _ _ Hov Ho)) as (A1 & A2 & A3 & A4 & A5 & A6).
    destruct (IH s1 s2 ds2 Hr A1 Hwr Ho) as (B1 & B2 & B3 & B4 & B5).
    split_and!; auto; try lia; try congruence.
    (* [x] is the input or the output of the first step, or belongs to the rest of the run *)
    intros x Hx. unfold inputs in Hx. simpl in Hx.
    apply in_app_or in Hx as [Hx|Hx]; apply in_opt_cons in Hx as [Hx|Hx].
    + eapply times_le_mono; [exact B3|]. by apply A5.
    + apply B5, in_or_app. by left.
    + eapply times_le_mono; [exact B3|]. by apply A6.
    + apply B5, in_or_app. by right.
Qed.

Lemma issued_above_seen_from s0 pre e s ds s1 d :
  Inv s0 → run s0 pre = (s, ds) → Forall wf_event pre →
  step s e = (s1, Some d) → is_write e = true → sh_ovf s1 = false →
  st_rid (rv_ts d) = sh_rid s0 ∧
  ∀ x, In x (inputs pre ++ ds) → ∃ b, times_le x b ∧ b < st_time (rv_ts d).
Proof.
  intros HI0 Hrun Hwf Hstep Hw Ho.
  destruct (step_issue s e s1 d Hstep Hw Ho) as [Hts Hlt].
  pose proof (step_ovf s e) as Hov. rewrite Hstep in Hov.
  destruct (run_ok pre _ _ _ Hrun HI0 Hwf (sticky_false _ _ Hov Ho)) as (_ & _ & _ & Hrid & Hseen).
  pose proof (step_rid _ _ _ _ Hstep) as R.
  rewrite Hts. simpl. split; [congruence|]. intros x Hx. exists (sh_time s). auto.
Qed.

Theorem issued_above_seen_lemma rid causal pre e s ds s1 d :
  run (shard_init rid causal) pre = (s, ds) →
  Forall wf_event pre →
  step s e = (s1, Some d) → is_write e = true → sh_ovf s1 = false →
  st_rid (rv_ts d) = rid ∧
  ∀ x, In x (inputs pre ++ ds) → ∃ b, times_le x b ∧ b < st_time (rv_ts d).
Proof. apply issued_above_seen_from, stored_init. Qed.

Lemma lww_supersedes x d r b :
  times_le x b → rv_crdt d = CLww r → lw_ts r = rv_ts d → b < st_time (rv_ts d) →
  rv_get (rv_merge x d) = lww_get r ∧ rv_get (rv_merge d x) = lww_get r ∧
  rv_ts (rv_merge x d) = rv_ts d ∧ rv_ts (rv_merge d x) = rv_ts d.
Proof.
  intros [Hx1 Hx2] Hc Hr Hb.
  assert (Hlt : stamp_ltb (rv_ts x) (rv_ts d) = true) by (apply stamp_lt_of_time; lia).
  destruct (merge_lww_newer (rv_crdt x) r _ _ b Hx2 ltac:(by rewrite Hr) Hlt) as [M1 M2].
  unfold rv_get, rv_merge, stamp_merge. simpl.
  by rewrite Hc, M1, M2, Hlt, (stamp_ltb_asym _ _ Hlt).
Qed.

Theorem write_supersedes_lemma s k val exp s1 d x :
  step s (EWrite k val exp) = (s1, Some d) → sh_ovf s1 = false →
  times_le x (sh_time s) →
  rv_get (rv_merge x d) = Some val ∧ rv_get (rv_merge d x) = Some val ∧
  rv_ts (rv_merge x d) = rv_ts d ∧ rv_ts (rv_merge d x) = rv_ts d.
Proof.
  intros Hstep Ho Hx.
  destruct (step_issue s _ s1 d Hstep eq_refl Ho) as [Hts Hlt].
  apply (lww_supersedes x d (Lww (Some val) (rv_ts d) false) (sh_time s)); [done| |done|by rewrite Hts].
  destruct (step_emits _ _ _ _ Hstep) as (r & Hrun & _ & ->). by inversion Hrun.
Qed.

(* Across a restart: every stamp issued after recovery is greater than the stamp of every
   value of [ds1] that some recovered value dominates.  With [ds1] what the first incarnation
   issued the hypothesis says that this was durable; the run that issued it plays no part. *)
Theorem no_repeat_across_restart_lemma rid causal ds1 rec evs2 e s2 ds2 s3 d :
  run (shard_init rid causal) (rec ++ evs2) = (s2, ds2) →
  Forall wf_event (rec ++ evs2) →
  (∀ d1, In d1 ds1 → ∃ r, In r (inputs rec) ∧ st_time (rv_ts d1) ≤ st_time (rv_ts r)) →
  step s2 e = (s3, Some d) → is_write e = true → sh_ovf s3 = false →
  ∀ d1, In d1 ds1 → stamp_ltb (rv_ts d1) (rv_ts d) = true.
Proof.
  intros Hrun2 Hwf Hdur Hstep Hw Ho d1 Hd1.
  destruct (Hdur d1 Hd1) as (r & Hr & Hle).
  destruct (issued_above_seen_lemma rid causal (rec ++ evs2) e s2 ds2 s3 d Hrun2 Hwf Hstep Hw Ho) as [_ Hseen].
  destruct (Hseen r) as (b & [Hb _] & Hlt).
  { apply in_or_app. left. unfold inputs in *. rewrite omap_app. apply in_or_app. by left. }
  apply stamp_lt_of_time. lia.
Qed.

Lemma step_wf s e s1 od :
  step s e = (s1, od) → Inv s → WfInv s → wf_event e → sh_ovf s1 = false →
  WfInv s1 ∧ (∀ d, od = Some d → wf_value d).
Proof.
  intros Hstep HI HW Hwf Ho. unfold wf_event in Hwf.
  destruct (step_cases _ _ _ _ Hstep) as [Hin|v r -> Hrun|v m Hin Hm].
  - done.
  - pose proof (local_run_op _ _ _ _ Hrun) as Hop. change (sh_ovf r.1 = false) in Ho.
    (* untouched, or bounded by the clock it is stamped with *)
    assert (Hr : wf_value r.2).
    { destruct (lo_ts _ _ _ Hop) as [->|S]; [by apply start_value_wf|].
      unfold wf_value. rewrite S. by apply (lo_le _ _ _ Hop Ho), start_value_le. }
    split; [|by intros d [= <-]]. by apply (stored_put _ _ s _ _ _ HW (lo_keys _ _ _ Hop)).
  - rewrite Hin in Hwf. split; [|done]. change (sh_ovf (clock_update s (rv_ts v)) = false) in Ho.
    destruct (clock_update_spec s (rv_ts v) Ho) as (_ & _ & _ & Hk).
    apply (stored_put _ _ s _ _ _ HW Hk); [done|]. destruct Hm as [->|(l & Hl & ->)]; [done|].
    apply rv_merge_wf; [by apply (HW (key_of e))|done].
Qed.

Lemma run_wf evs : ∀ s s' ds,
  run s evs = (s', ds) → Inv s → WfInv s → Forall wf_event evs → sh_ovf s' = false →
  WfInv s' ∧ Forall wf_value ds.
Proof.
  induction evs as [|e evs IH]; intros s s' ds Hrun HI HW Hwf Ho; simpl in Hrun.
  - injection Hrun as <- <-. split; [done|constructor].
  - destruct (step s e) as [s1 od] eqn:Hs. destruct (run s1 evs) as [s2 ds2] eqn:Hr.
    injection Hrun as <- <-. inversion Hwf as [|? ? Hwe Hwr]; subst.
    pose proof (run_ovf evs s1) as Hov. rewrite Hr in Hov. pose proof (sticky_false _ _ Hov Ho) as Ho1.
    pose proof (step_inv s e s1 od Hs HI Hwe Ho1) as HI1.
    destruct (step_wf s e s1 od Hs HI HW Hwe Ho1) as (HW1 & Hd).
    destruct (IH s1 s2 ds2 Hr HI1 HW1 Hwr Ho) as (HW2 & Hds).
    split; [done|]. destruct od; [constructor; auto|done].
Qed.

(* Overflow witness (known finding C08-clock-overflow): a received stamp with time 2^64-1 *)
Definition ovf_event : event :=
  ERemote [107] (RV (CLww (Lww (Some [1]) (Stamp U64MAX 2) false)) None None (Stamp U64MAX 2) None).
Lemma overflow_witness :
  wf_event ovf_event ∧
  let '(s, ds) := run (shard_init 1 false) [ovf_event; EWrite [107] [2] None] in
  sh_ovf s = true ∧ ∃ d, ds = [d] ∧ stamp_ltb (rv_ts d) (Stamp U64MAX 2) = true.
Proof.
  split.
  - split; cbn [rv_ts st_time ovf_event ev_input rv_crdt crdt_times_le lw_ts]; lia.
  - (* evaluate the projections asked about only: the normal form of a whole state (a gmap
       with its proofs) is large *)
    destruct (run (shard_init 1 false) [ovf_event; EWrite [107] [2] None]) as [s ds] eqn:E.
    assert (Hc : (let r := run (shard_init 1 false) [ovf_event; EWrite [107] [2] None] in
                  (sh_ovf r.1, map rv_ts r.2)) = (true, [Stamp 1 1])) by (vm_compute; reflexivity).
    rewrite E in Hc. cbn [fst snd] in Hc.
    assert (H : sh_ovf s = true ∧ map rv_ts ds = [Stamp 1 1]) by (by injection Hc).
    destruct H as [H1 H2]. split; [done|].
    destruct ds as [|d [|d' ds']]; try discriminate H2. exists d. split; [done|].
    injection H2 as ->. vm_compute. reflexivity.
Qed.

(* Non-vacuity: a run with remote, recovered and local events that does not overflow *)
Definition ex_evs : list event :=
  [ERecover [107] (RV (CLww (Lww (Some [1]) (Stamp 10 1) false)) None None (Stamp 10 1) None);
   ERemote [107] (RV (CLww (Lww (Some [2]) (Stamp 7 2) false)) None None (Stamp 7 2) None)].
Lemma ex_run_ok :
  Forall wf_event ex_evs ∧
  let '(s, _) := run (shard_init 1 false) ex_evs in
  ∃ s1 d, step s (EWrite [107] [3] None) = (s1, Some d) ∧ sh_ovf s1 = false ∧ rv_ts d = Stamp 13 1.
Proof.
  split.
  - repeat constructor; cbn [rv_ts st_time ev_input rv_crdt crdt_times_le lw_ts]; lia.
  - destruct (run (shard_init 1 false) ex_evs) as [s ds] eqn:E.
    destruct (step s (EWrite [107] [3] None)) as [s1 od] eqn:E1.
    assert (H : (let r := step (run (shard_init 1 false) ex_evs).1 (EWrite [107] [3] None) in
                 (sh_ovf r.1, option_map rv_ts r.2)) = (false, Some (Stamp 13 1))) by (vm_compute; reflexivity).
    rewrite E in H. cbn [fst snd] in H. rewrite E1 in H. cbn [fst snd] in H.
    injection H as H1 H2. destruct od as [d|]; [|discriminate H2]. injection H2 as H2.
    exists s1, d. done.
Qed.
