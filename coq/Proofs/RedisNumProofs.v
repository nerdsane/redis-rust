(* Decimal text of integers: what INCRBY/HINCRBY store (fmt_Z) parses back (parse_i64 = Redis's string2ll). *)
From stdpp Require Import gmap.
From Coq Require Import ZArith NArith Lia.
From RV Require Import Model.Redis.
Local Open Scope Z_scope.

Lemma digits_val_app a l1 l2 :
  digits_val a (l1 ++ l2) = match digits_val a l1 with Some b => digits_val b l2 | None => None end.
Proof.
  revert a. induction l1 as [|c l1 IH]; intros a; simpl; [done|].
  destruct (is_digit c); [apply IH | done].
Qed.

Definition digit_of (n : N) : N := (48 + n mod 10)%N.
Lemma digit_of_ok n : is_digit (digit_of n) = true ∧ Z.of_N (digit_of n - 48) = Z.of_N (n mod 10).
Proof.
  unfold digit_of, is_digit.
  assert ((n mod 10 < 10)%N) by (apply N.mod_lt; discriminate).
  remember (n mod 10)%N as r. clear Heqr. split.
  - apply andb_true_iff. split; apply N.leb_le; lia.
  - f_equal. lia.
Qed.

(* [D] is the decimal numeral of [n]: read after any prefix its digits add [n], and for [n > 0]
   it has no leading zero (so its length is that of [n]) *)
Definition numeral (n : N) (D : list N) : Prop :=
  (∀ a, digits_val a D = Some (a * 10 ^ Z.of_nat (List.length D) + Z.of_N n)) ∧
  (0 < Z.of_N n → 10 ^ (Z.of_nat (List.length D) - 1) <= Z.of_N n ∧
                   match D with c :: _ => is_digit19 c = true | [] => False end).

Lemma numeral_digit n : (n < 10)%N → numeral n [digit_of n].
Proof.
  intros Hlt. destruct (digit_of_ok n) as [Hd Hv].
  assert ((n mod 10 = n)%N) as Hm by (apply N.mod_small; lia).
  split.
  - intros a. simpl. rewrite Hd, Hv, Hm. f_equal. lia.
  - intros Hp. simpl. split; [lia|]. unfold is_digit19, digit_of. rewrite Hm.
    apply andb_true_iff. split; apply N.leb_le; lia.
Qed.

Lemma numeral_snoc n D : (10 <= n)%N → numeral (n / 10) D → numeral n (D ++ [digit_of n]).
Proof.
  intros Hge (Hval & Hpos). destruct (digit_of_ok n) as [Hd Hv].
  assert (0 < Z.of_N (n / 10)) as Hq0 by (rewrite N2Z.inj_div; apply Z.div_str_pos; lia).
  destruct (Hpos Hq0) as [Hlow Hhd].
  assert (Z.of_N n = 10 * Z.of_N (n / 10) + Z.of_N (n mod 10)) as Hdm.
  { rewrite (N.div_mod n 10) at 1 by discriminate. by rewrite N2Z.inj_add, N2Z.inj_mul. }
  unfold numeral. rewrite app_length, Nat2Z.inj_add. change (Z.of_nat (List.length [digit_of n])) with 1.
  split.
  - intros a. rewrite digits_val_app, Hval. simpl. rewrite Hd, Hv. f_equal.
    rewrite Z.pow_add_r by lia. lia.
  - intros _. destruct D as [|c D]; [done|]. split; [|done].
    replace (Z.of_nat (List.length (c :: D)) + 1 - 1) with (Z.of_nat (List.length (c :: D)) - 1 + 1) by lia.
    rewrite Z.pow_add_r by (simpl; lia). pose proof (N2Z.is_nonneg (n mod 10)). lia.
Qed.

Lemma fmt_N_aux_S f n acc :
  fmt_N_aux (S f) n acc =
  if (n <? 10)%N then digit_of n :: acc else fmt_N_aux f (n / 10) (digit_of n :: acc).
Proof. reflexivity. Qed.

Lemma fmt_N_aux_numeral f : ∀ n acc, Z.of_N n < 10 ^ Z.of_nat (S f) →
  ∃ D, fmt_N_aux (S f) n acc = D ++ acc ∧ numeral n D.
Proof.
  induction f as [|f IH]; intros n acc Hn; rewrite fmt_N_aux_S; destruct (N.ltb_spec n 10) as [Hlt|Hge].
  1,3: exists [digit_of n]; split; [done | by apply numeral_digit].   (* below 10: one digit *)
  - simpl in Hn. lia.
  - (* the digits of n/10, then the last digit *)
    destruct (IH (n / 10)%N (digit_of n :: acc)) as (D & HD & Hnum).
    { rewrite N2Z.inj_div. apply Z.div_lt_upper_bound; [lia|].
      rewrite Nat2Z.inj_succ, Z.pow_succ_r in Hn by lia. lia. }
    exists (D ++ [digit_of n]). split; [by rewrite HD, <- app_assoc | by apply numeral_snoc].
Qed.

Lemma pos_size_nat_gt p : Z.pos p < 2 ^ Z.of_nat (Pos.size_nat p).
Proof.
  induction p as [p IH|p IH|]; cbn [Pos.size_nat]; [| |simpl; lia].
  all: rewrite Nat2Z.inj_succ, Z.pow_succ_r by lia; lia.
Qed.

(* the fuel suffices: it is the binary length of [n] plus one, and 2^k <= 10^k *)
Lemma fmt_N_numeral n : numeral n (fmt_N n).
Proof.
  unfold fmt_N. destruct (fmt_N_aux_numeral (N.size_nat n) n []) as (D & -> & HD); [|by rewrite app_nil_r].
  destruct n as [|p]; [simpl; lia|]. simpl N.size_nat.
  pose proof (pos_size_nat_gt p).
  assert (2 ^ Z.of_nat (Pos.size_nat p) <= 10 ^ Z.of_nat (Pos.size_nat p)) by (apply Z.pow_le_mono_l; lia).
  rewrite Nat2Z.inj_succ, Z.pow_succ_r by lia. simpl Z.of_N. lia.
Qed.

Lemma parse_numeral n D : numeral n D → 0 < Z.of_N n →
  (Z.of_N n <= I64MAX → parse_i64 D = Some (Z.of_N n)) ∧
  (Z.of_N n <= - I64MIN → parse_i64 (45%N :: D) = Some (- Z.of_N n)).
Proof.
  intros (Hval & Hpos) Hp. destruct (Hpos Hp) as [Hlow Hhd]. destruct D as [|d D']; [done|].
  assert (Z.of_N n <= - I64MIN → (List.length (d :: D') <= 19)%nat) as Hlen.
  { intros Hle. destruct (le_lt_dec (List.length (d :: D')) 19) as [|Hgt]; [done|]. exfalso.
    assert (10 ^ 19 <= 10 ^ (Z.of_nat (List.length (d :: D')) - 1)) by (apply Z.pow_le_mono_r; lia).
    unfold I64MIN in Hle. change (10 ^ 19) with 10000000000000000000 in *. lia. }
  unfold parse_i64. rewrite Hhd, Hval, Z.mul_0_l, Z.add_0_l. split; intros Hle.
  - replace (21 <=? List.length (d :: D'))%nat with false
      by (symmetry; apply Nat.leb_gt; unfold I64MAX, I64MIN in *; simpl in *; lia).
    unfold is_digit19 in Hhd. apply andb_true_iff in Hhd as [Hd1 Hd2]. apply N.leb_le in Hd1, Hd2.
    replace (d =? 48)%N with false by (symmetry; apply N.eqb_neq; lia).
    replace (d =? 45)%N with false by (symmetry; apply N.eqb_neq; lia).
    by rewrite (proj2 (Z.leb_le _ _) Hle).
  - replace (21 <=? List.length (45%N :: d :: D'))%nat with false
      by (symmetry; apply Nat.leb_gt; simpl in *; lia).
    cbn [N.eqb Pos.eqb]. by rewrite (proj2 (Z.leb_le _ _) Hle).
Qed.

Theorem parse_fmt_roundtrip_lemma : ∀ z, in_i64 z = true → parse_i64 (fmt_Z z) = Some z.
Proof.
  intros z Hz. unfold in_i64 in Hz. apply andb_true_iff in Hz as [H1 H2]. apply Z.leb_le in H1, H2.
  unfold fmt_Z. destruct (Z.ltb_spec z 0) as [Hneg|Hpos].
  - destruct (parse_numeral _ _ (fmt_N_numeral (Z.to_N (- z)))) as [_ Hn]; [lia|].
    rewrite Hn, Z2N.id by (unfold I64MIN in *; lia). f_equal. lia.
  - destruct (Z.eq_dec z 0) as [->|Hnz]; [reflexivity|].
    destruct (parse_numeral _ _ (fmt_N_numeral (Z.to_N z))) as [Hp _]; [lia|].
    by rewrite Hp, Z2N.id by lia.
Qed.
