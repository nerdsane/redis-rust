(* C03 - proofs about Model/Shard.v: both routing functions agree; an N-shard dispatcher over any
   executor satisfying [exec_ok] refines the one-store reference for every single-home request
   (abstraction = union of the shards, invariant = every key is stored in its home shard);
   the classification is what the table generated from command.rs says; Model/MiniKV.v is such
   an executor. *)
From stdpp Require Import gmap sorting.
From Coq Require Import NArith ZArith String Lia.
From RV Require Import Lib.Hex Lib.SipHash Lib.SipHashFast Gen.KeyTable Model.Shard Model.MiniKV.
Local Open Scope N_scope.

(* the tree before /repo 36d66e2: "foo" on 16 shards *)
Lemma routes_disagreed_before_fix :
  exists k n, route_str_before_fix k n <> route_bytes k n.
Proof.
  exists [102; 111; 111], 16. unfold route_str_before_fix, route_bytes, hash_str, hash_slice.
  rewrite <- !sip13f_eq, <- le64f_eq. vm_compute. discriminate.
Qed.

Lemma home_bytes_lt n k : (0 < n)%nat -> (home_bytes n k < n)%nat.
Proof.
  intros Hn. unfold home_bytes, route_bytes.
  assert (hash_slice k mod N.of_nat n < N.of_nat n) by (apply N.mod_lt; lia). lia.
Qed.
(* stated from the common unfolding: asked to convert [home_str n k] with [home_bytes n k] the kernel
   unfolds [route_bytes] before [route_str] and goes a long way into [N.modulo] *)
Lemma home_str_bytes n k : home_str n k = home_bytes n k.
Proof. exact (eq_refl (N.to_nat (route_bytes k (N.of_nat n)))). Qed.
Lemma home_bytes_str n k : home_bytes n k = home_str n k.
Proof. exact (eq_refl (N.to_nat (route_bytes k (N.of_nat n)))). Qed.
Lemma home_str_lt n k : (0 < n)%nat -> (home_str n k < n)%nat.
Proof. rewrite home_str_bytes. apply home_bytes_lt. Qed.

(* the same shard through the SipHash of Lib/SipHashFast.v: the one to evaluate.  A [vm_compute]
   is replayed by coqchk with its lazy machine, where the reference hash (a division by 2^64 at
   every addition) costs 71 M words a key against 4.5 for this one; coqc's VM hardly tells them apart *)
Definition home_fast (n : nat) (k : list N) : nat :=
  N.to_nat (sip13f (le64f (N.of_nat (List.length k)) ++ k) mod N.of_nat n).
Lemma home_fast_eq n k : home_fast n k = home_str n k.
Proof. unfold home_fast, home_str, route_str, route_bytes, hash_slice. by rewrite sip13f_eq, le64f_eq. Qed.

(* the order SCAN sorts by *)
Lemma bytes_leb_cons x a y b :
  bytes_leb (x :: a) (y :: b) = true <-> x < y \/ (x = y /\ bytes_leb a b = true).
Proof.
  cbn. destruct (N.ltb_spec x y), (N.eqb_spec x y); split; auto; try lia; try discriminate.
  intros [?|[? ?]]; [lia|done].
Qed.
Lemma bytes_leb_refl a : bytes_leb a a = true.
Proof. induction a as [|x a IH]; [done|]. apply bytes_leb_cons. auto. Qed.
Global Instance bytes_le_total : Total bytes_le.
Proof.
  unfold bytes_le. intros a; induction a as [|x a IH]; intros [|y b]; auto. rewrite !bytes_leb_cons.
  destruct (N.lt_trichotomy x y) as [?|[->|?]], (IH b); auto.
Qed.
Global Instance bytes_le_trans : Transitive bytes_le.
Proof.
  unfold bytes_le. intros a; induction a as [|x a IH]; intros [|y b] [|z c]; try done.
  rewrite !bytes_leb_cons. intros [?|[-> ?]] [?|[-> ?]]; [left; lia..|]. right. eauto.
Qed.
Global Instance bytes_le_antisym : AntiSymm (=) bytes_le.
Proof.
  unfold bytes_le. intros a; induction a as [|x a IH]; intros [|y b]; try done.
  rewrite !bytes_leb_cons. intros [?|[-> ?]] [?|[? ?]]; try lia. f_equal. auto.
Qed.

Lemma merge_sort_perm_eq (l1 l2 : list (list N)) :
  l1 ≡ₚ l2 -> merge_sort bytes_le l1 = merge_sort bytes_le l2.
Proof.
  intros Hp. apply (Sorted_unique bytes_le); try apply Sorted_merge_sort; try apply _.
  rewrite !merge_sort_Permutation. done.
Qed.
Lemma scan_page_perm l1 l2 c n : l1 ≡ₚ l2 -> scan_page l1 c n = scan_page l2 c n.
Proof. intros Hp. unfold scan_page. rewrite (merge_sort_perm_eq _ _ Hp). done. Qed.

Section Maps.
  Context {V : Type}.
  Notation st := (gmap (list N) V).
  Implicit Types (s : st) (sh : list st).

  Lemma lookup_union_list_None sh k : (⋃ sh) !! k = None <-> Forall (fun s => s !! k = None) sh.
  Proof.
    induction sh as [|s sh IH]; cbn.
    - rewrite lookup_empty. split; auto.
    - rewrite lookup_union_None, IH, Forall_cons. done.
  Qed.

  Lemma lookup_union_list_at sh i s k :
    sh !! i = Some s ->
    (forall j t, sh !! j = Some t -> is_Some (t !! k) -> j = i) ->
    (⋃ sh) !! k = s !! k.
  Proof.
    revert i; induction sh as [|t sh IH]; intros i Hi Hu; [done|].
    cbn [union_list foldr]. destruct i as [|i]; cbn in Hi.
    - inversion Hi; subst t. apply lookup_union_l, lookup_union_list_None.
      apply Forall_forall; intros u Hu'. apply elem_of_list_lookup in Hu' as [j Hj].
      apply eq_None_not_Some. intros Hs. by specialize (Hu (S j) u Hj Hs).
    - rewrite lookup_union_r.
      + apply (IH i Hi). intros j u Hj Hs. specialize (Hu (S j) u Hj Hs). lia.
      + apply eq_None_not_Some. intros Hs. by specialize (Hu O t eq_refl Hs).
  Qed.

  Definition Disj sh : Prop :=
    forall i j s t, i <> j -> sh !! i = Some s -> sh !! j = Some t -> s ##ₘ t.
  Lemma Disj_cons s sh : Disj (s :: sh) -> s ##ₘ ⋃ sh /\ Disj sh.
  Proof.
    intros H; split.
    - apply map_disjoint_union_list_r_2, Forall_forall. intros t Ht.
      apply elem_of_list_lookup in Ht as [j Hj]. symmetry. apply (H O (S j)); auto.
    - intros i j a b Hij Ha Hb. apply (H (S i) (S j)); auto.
  Qed.

  Definition zsum (l : list Z) : Z := foldr Z.add 0%Z l.
  Definition zsize s : Z := Z.of_nat (size s).
  Lemma size_union_list sh : Disj sh -> zsize (⋃ sh) = zsum (zsize <$> sh).
  Proof.
    induction sh as [|s sh IH]; intros HD; cbn.
    - unfold zsize. by rewrite map_size_empty.
    - apply Disj_cons in HD as [H1 H2].
      change (zsize (s ∪ ⋃ sh) = (zsize s + zsum (zsize <$> sh))%Z).
      rewrite <- IH by done. unfold zsize. rewrite map_size_disj_union by done. lia.
  Qed.

  Lemma elem_of_map_keys s k : k ∈ map_keys s <-> is_Some (s !! k).
  Proof.
    unfold map_keys. rewrite elem_of_list_fmap. split.
    - intros [[k' v] [-> H]]. apply elem_of_map_to_list in H. eauto.
    - intros [v H]. exists (k, v). split; [done|]. by apply elem_of_map_to_list.
  Qed.
  Lemma map_keys_union s1 s2 : s1 ##ₘ s2 -> map_keys (s1 ∪ s2) ≡ₚ map_keys s1 ++ map_keys s2.
  Proof.
    intros HD. apply NoDup_Permutation.
    - apply NoDup_fst_map_to_list.
    - apply NoDup_app; split; [apply NoDup_fst_map_to_list|]. split; [|apply NoDup_fst_map_to_list].
      intros k H1 H2. apply elem_of_map_keys in H1 as [v1 H1]. apply elem_of_map_keys in H2 as [v2 H2].
      by pose proof (map_disjoint_spec s1 s2) as [Hs _]; eapply Hs.
    - intros k. by rewrite elem_of_app, !elem_of_map_keys, lookup_union_is_Some.
  Qed.
  Lemma map_keys_union_list sh : Disj sh -> map_keys (⋃ sh) ≡ₚ List.concat (map_keys <$> sh).
  Proof.
    induction sh as [|s sh IH]; intros HD; cbn.
    - unfold map_keys. by rewrite map_to_list_empty.
    - apply Disj_cons in HD as [H1 H2]. rewrite map_keys_union by done. by rewrite IH.
  Qed.
End Maps.

Section Lists.
  Context {A B : Type}.

  Definition ins (res : list B) (iv : nat * B) : list B := <[iv.1 := iv.2]> res.

  Lemma foldl_ins_length (ws : list (nat * B)) res : List.length (foldl ins res ws) = List.length res.
  Proof. revert res; induction ws as [|w ws IH]; intros res; cbn; [done|]. rewrite IH. apply insert_length. Qed.

  Lemma foldl_ins_lookup (ws : list (nat * B)) res j v :
    (forall j' v', (j', v') ∈ ws -> j' = j -> v' = v) -> (j, v) ∈ ws -> (j < List.length res)%nat ->
    foldl ins res ws !! j = Some v.
  Proof.
    revert res. induction ws as [|[j' v'] ws IH] using rev_ind; intros res Hc Hin Hj.
    - by apply elem_of_nil in Hin.
    - rewrite foldl_app. cbn. unfold ins at 1. cbn.
      destruct (decide (j' = j)) as [->|Hne].
      + rewrite (Hc j v') by (rewrite ?elem_of_app, ?elem_of_list_singleton; auto).
        apply list_lookup_insert. by rewrite foldl_ins_length.
      + rewrite list_lookup_insert_ne by done. apply IH; auto.
        * intros a b Hab. apply Hc. rewrite elem_of_app; auto.
        * apply elem_of_app in Hin as [?|Hin]; [done|].
          apply elem_of_list_singleton in Hin. congruence.
  Qed.

  Lemma foldl_ext (f g : B -> A -> B) a (l : list A) :
    (forall a b, f a b = g a b) -> foldl f a l = foldl g a l.
  Proof. intros H. revert a; induction l as [|b l IH]; intros a; cbn; [done|]. by rewrite H, IH. Qed.

  Lemma foldl_join (f : B -> A -> B) a (ls : list (list A)) :
    foldl (fun a l => foldl f a l) a ls = foldl f a (mjoin ls).
  Proof. revert a; induction ls as [|l ls IH]; intros a; cbn; [done|]. by rewrite foldl_app, IH. Qed.

  Lemma zip_fst_snd_fmap (G : A -> B) (l : list (nat * A)) :
    zip l.*1 (G <$> l.*2) = (fun p => (p.1, G p.2)) <$> l.
  Proof. induction l as [|[j a] l IH]; cbn; [done|]. by rewrite IH. Qed.
End Lists.

Section WriteBack.
  Context {A : Type}.

  Lemma write_back_writes init len outs :
    write_back init len outs = foldl ins (replicate len init) (mjoin ((fun o => zip o.1 o.2) <$> outs)).
  Proof. unfold write_back. by rewrite <- foldl_join, foldl_fmap. Qed.

  Lemma write_back_spec (G : A -> reply) init (items : list A) outs :
    (forall o j v, o ∈ outs -> (j, v) ∈ zip o.1 o.2 -> exists a, items !! j = Some a /\ v = G a) ->
    (forall j a, items !! j = Some a -> exists o, o ∈ outs /\ (j, G a) ∈ zip o.1 o.2) ->
    write_back init (List.length items) outs = G <$> items.
  Proof.
    intros Hs Hc. rewrite write_back_writes. set (ws := mjoin _).
    assert (forall j v, (j, v) ∈ ws <-> exists o, o ∈ outs /\ (j, v) ∈ zip o.1 o.2) as Hws.
    { intros j v. unfold ws. rewrite elem_of_list_join. setoid_rewrite elem_of_list_fmap. naive_solver. }
    apply list_eq; intros j. rewrite list_lookup_fmap.
    destruct (items !! j) as [a|] eqn:E; cbn.
    - apply foldl_ins_lookup.
      + intros j' v' Hin ->. apply Hws in Hin as [o [Ho Hin]].
        destruct (Hs o j v' Ho Hin) as [a' [Ha' ->]]. congruence.
      + apply Hws. auto.
      + rewrite replicate_length. by apply lookup_lt_Some in E.
    - apply lookup_ge_None. rewrite foldl_ins_length, replicate_length. by apply lookup_ge_None in E.
  Qed.
End WriteBack.

Section Batches.
  Context {A : Type}.
  Variable rt : A -> nat.

  Lemma batch_of_snd_gen (g : nat -> nat) i (items : list A) :
    (filter (fun p : nat * A => rt p.2 = i) (imap (fun j a => (g j, a)) items)).*2 = filter (fun a => rt a = i) items.
  Proof.
    revert g; induction items as [|a items IH]; intros g; [done|].
    rewrite imap_cons.
    change (imap ((fun j a => (g j, a)) ∘ S) items) with (imap (fun j a => ((g ∘ S) j, a)) items).
    rewrite !filter_cons. cbn. destruct (decide (rt a = i)); cbn; by rewrite (IH (fun j => g (S j))).
  Qed.
  Lemma batch_of_snd i items : (batch_of rt i items).*2 = filter (fun a => rt a = i) items.
  Proof. apply (batch_of_snd_gen id). Qed.

  Lemma elem_of_batch_of i items j a :
    (j, a) ∈ batch_of rt i items <-> items !! j = Some a /\ rt a = i.
  Proof.
    unfold batch_of. rewrite elem_of_list_filter, elem_of_lookup_imap. cbn. split.
    - intros [Hr [j' [a' [Heq Hl]]]]. inversion Heq; subst. done.
    - intros [Hl Hr]. split; [done|]. eauto.
  Qed.
End Batches.

Lemma filter_key_batch {A} (keyof : A -> list N) (home : list N -> nat) i k (items : list A) :
  filter (fun a => keyof a = k) (filter (fun a => home (keyof a) = i) items)
  = if decide (home k = i) then filter (fun a => keyof a = k) items else [].
Proof.
  rewrite list_filter_filter. destruct (decide (home k = i)) as [Hh|Hh].
  - apply list_filter_iff. intros a. split; [by intros [? _]|]. by intros <-.
  - apply elem_of_nil_inv. intros a [[<- ?] _]%elem_of_list_filter. done.
Qed.

Lemma rows_ok : forallb row_ok key_table = true.
Proof. vm_compute. reflexivity. Qed.
Lemma assoc_In {B} (t : string) (l : list (string * B)) (b : B) : assoc t l = Some b -> In (t, b) l.
Proof.
  induction l as [|[x y] l IH]; cbn; [done|]. destruct (String.eqb t x) eqn:E.
  - apply String.eqb_eq in E. intros [= ->]. subst. by left.
  - intros H. right. auto.
Qed.

Lemma table_row_ok t p spec : table_row t = Some (p, spec) -> row_ok (t, (p, spec)) = true.
Proof. intros H%assoc_In. pose proof rows_ok as Hall. rewrite forallb_forall in Hall. by apply Hall. Qed.

Lemma table_row_single_home t p spec : table_row t = Some (p, spec) ->
  tag_single_home t = at_most_one_key spec || in_tags t dispatch_arms.
Proof. intros [[H _]%andb_prop _]%table_row_ok%andb_prop. by apply Bool.eqb_prop. Qed.
Lemma table_row_head t p spec : table_row t = Some (p, spec) -> in_tags t dispatch_arms = false ->
  head_consistent p spec = true /\ (p = PNone -> spec = []).
Proof.
  intros [[_ H2]%andb_prop H3]%table_row_ok%andb_prop Harm. rewrite Harm in H2, H3.
  split; [done|]. intros ->. by destruct spec.
Qed.

Lemma variants_have_rows t : In t kt_variants -> exists p spec, table_row t = Some (p, spec).
Proof.
  assert (forallb (fun t => match table_row t with Some _ => true | None => false end) kt_variants = true) as H
    by (vm_compute; reflexivity).
  rewrite forallb_forall in H. intros Ht%H. destruct (table_row t) as [[p spec]|]; [eauto|done].
Qed.

Lemma single_home_tag_not_cross P (home : nat -> list N -> nat) n tag ks (p : P) :
  tag_single_home tag = true -> WfCmd (COp tag ks p) -> ~ CrossShard home n (COp tag ks p).
Proof.
  intros Hsh [Harm [p0 [spec [Hrow Hconf]]]] [k1 [k2 [Hk1 [Hk2 Hne]]]].
  rewrite (table_row_single_home tag p0 spec Hrow), Harm, orb_false_r in Hsh. cbn in Hk1, Hk2.
  assert (List.length ks <= 1)%nat as Hlen.
  { destruct spec as [|[] [|]]; try done; cbn in Hconf; apply Nat.eqb_eq in Hconf; lia. }
  destruct ks as [|a [|b ks]]; cbn in Hlen; try lia.
  - by apply elem_of_nil in Hk1.
  - apply elem_of_list_singleton in Hk1, Hk2. congruence.
Qed.

Lemma primary_of_wf {P} (c : cmd P) :
  WfCmd c -> default_routed c -> cmd_keys c <> [] -> primary_key c = hd_error (cmd_keys c).
Proof.
  destruct c as [| | | | | | | | |ks0|kvs0|tag ks p0]; try (by intros _ []); try (intros _ _ _; reflexivity).
  intros [Harm [p1 [spec [Hrow Hconf]]]] _ Hne. unfold primary_key. cbn [tag_of cmd_keys]. rewrite Hrow.
  destruct (table_row_head _ _ _ Hrow Harm) as [_ Hnone].
  destruct p1; try done. rewrite (Hnone eq_refl) in Hconf. cbn in Hconf, Hne. by destruct ks.
Qed.

Section Routing.
  Context {V P : Type}.
  Variable X : executor V P.
  Notation st := (gmap (list N) V).
  Implicit Types (sh : list st).

  (* what shard i does with its batch *)
  Definition bstep {A} (rt : A -> nat) (run : st -> list A -> st * list reply) (items : list A)
      (i : nat) (s : st) : st * option (list nat * list reply) :=
    let b := batch_of rt i items in
    match b with
    | [] => (s, None)
    | _ => let '(s', rs) := run s (b.*2) in (s', Some (b.*1, rs))
    end.
  Lemma run_batches_bstep {A} (rt : A -> nat) run (items : list A) sh :
    run_batches rt run items sh = ((imap (bstep rt run items) sh).*1, omap snd (imap (bstep rt run items) sh)).
  Proof. reflexivity. Qed.
  Lemma run_batches_ext_rt {A} (rt rt' : A -> nat) run (items : list A) sh :
    (forall a, rt a = rt' a) -> run_batches rt run items sh = run_batches rt' run items sh.
  Proof.
    intros Hrt. rewrite !run_batches_bstep.
    assert (imap (bstep rt run items) sh = imap (bstep rt' run items) sh) as ->; [|done].
    apply imap_ext. intros i s _. unfold bstep.
    assert (batch_of rt i items = batch_of rt' i items) as ->; [|done].
    unfold batch_of. apply list_filter_iff. intros [j a]; cbn. by rewrite Hrt.
  Qed.


  (* the run depends on the routing functions only through their values: a witness may be
     evaluated with any routing that is pointwise the model's *)
  Section Ext.
    Variables hs hb hs' hb' : nat -> list N -> nat.
    Hypothesis Hs : forall n k, hs n k = hs' n k.
    Hypothesis Hb : forall n k, hb n k = hb' n k.

    Lemma exec_default_ext sh c : exec_default X hs sh c = exec_default X hs' sh c.
    Proof. unfold exec_default. destruct (primary_key c); by rewrite ?Hs. Qed.
    Lemma exec_generic_ext sh c : exec_generic X hs sh c = exec_generic X hs' sh c.
    Proof.
      destruct c; cbn [exec_generic]; try apply exec_default_ext; try done.
      - (* MGET *) by rewrite (run_batches_ext_rt _ _ _ _ _ (Hs _)).
      - (* MSET *)
        by rewrite (run_batches_ext_rt _ (fun kv => hs' (List.length sh) kv.1) _ _ _ (fun kv => Hs _ kv.1)).
      - (* DEL *) by rewrite (run_batches_ext_rt _ _ _ _ _ (Hs _)), exec_default_ext.
      - (* EXISTS *) erewrite foldl_ext; [reflexivity|]. intros acc k. by rewrite Hs.
    Qed.
    Lemma execN_ext sh r : execN X hs hb sh r = execN X hs' hb' sh r.
    Proof.
      destruct r; cbn [execN]; rewrite ?Hb; [apply exec_generic_ext|done|done| |].
      - by rewrite (run_batches_ext_rt _ _ _ _ _ (Hb _)).
      - by rewrite (run_batches_ext_rt _ (fun kv => hb' (List.length sh) kv.1) _ _ _ (fun kv => Hb _ kv.1)).
    Qed.
    Lemma runN_ext rs : forall sh, runN X hs hb sh rs = runN X hs' hb' sh rs.
    Proof.
      induction rs as [|r rs IH]; intros sh; [done|]. cbn [runN]. rewrite execN_ext.
      destruct (execN X hs' hb' sh r) as [sh1 a]. by rewrite IH.
    Qed.
  End Ext.
End Routing.

Section Refine.
  Context {V P : Type}.
  Variable X : executor V P.
  Variable home_s home_b : nat -> list N -> nat.
  Hypothesis HX : exec_ok X.
  Hypothesis home_lt : forall n k, (0 < n)%nat -> (home_s n k < n)%nat.
  Hypothesis home_eq : forall n k, home_b n k = home_s n k.
  Notation st := (gmap (list N) V).
  Notation Homed := (Homed home_s).
  Implicit Types (s : st) (sh : list st) (k : list N).

  Lemma home_some sh k : (0 < List.length sh)%nat -> exists s, sh !! home_s (List.length sh) k = Some s.
  Proof. intros Hn. apply lookup_lt_is_Some_2. by apply home_lt. Qed.

  Lemma Homed_Disj sh : Homed sh -> Disj sh.
  Proof.
    intros HH i j s t Hij Hs Ht. apply map_disjoint_spec. intros k x y Hx Hy.
    pose proof (HH i s k Hs ltac:(eauto)). pose proof (HH j t k Ht ltac:(eauto)). congruence.
  Qed.

  Lemma lookup_abs sh s k :
    Homed sh -> sh !! home_s (List.length sh) k = Some s -> abs sh !! k = s !! k.
  Proof.
    intros HH Hs. unfold abs. apply (lookup_union_list_at sh _ s k Hs).
    intros j t Hj Ht. symmetry. by apply (HH j t k).
  Qed.

  (* the shape every state-changing arm has: shard i may change only the keys homed at i, and there
     it ends up holding what [T] holds ([T] will be the state the one-store reference reaches) *)
  Lemma family_update sh sh' (T : st) :
    Homed sh -> List.length sh' = List.length sh -> (0 < List.length sh)%nat ->
    (forall i s s' k, sh !! i = Some s -> sh' !! i = Some s' ->
       (home_s (List.length sh) k = i -> s' !! k = T !! k) /\
       (home_s (List.length sh) k <> i -> s' !! k = s !! k)) ->
    Homed sh' /\ abs sh' = T.
  Proof.
    intros HH Hlen Hn Hpt.
    assert (Homed sh') as HH'.
    { intros i s' k Hs' Hsome. rewrite Hlen.
      destruct (lookup_lt_is_Some_2 sh i) as [s Hs]. { rewrite <- Hlen. by eapply lookup_lt_Some. }
      destruct (decide (home_s (List.length sh) k = i)) as [|Hne]; [done|].
      destruct (Hpt i s s' k Hs Hs') as [_ H2]. rewrite (H2 Hne) in Hsome. by apply (HH i s k Hs). }
    split; [done|]. apply map_eq; intros k.
    destruct (home_some sh' k) as [s' Hs']; [lia|].
    rewrite (lookup_abs sh' s' k HH' Hs'). rewrite Hlen in Hs'.
    destruct (home_some sh k Hn) as [s Hs].
    by destruct (Hpt _ s s' k Hs Hs') as [H1 _]; apply H1.
  Qed.

  (* Grouping is a per-key update.  [upd k old l] is what running a batch does to key k, as a function
     of what the shard held under k and of the sub-list l of the batch that names k; [run_pt] says
     [run] acts like that, [upd_nil] that a batch not naming k leaves it alone.  Since all items
     naming k go to the home shard of k, in order, the family of shards then ends up holding
     [upd k old (the items of the whole request that name k)] (run_batches_state), which is what [run]
     leaves of the union given the whole request (run_batches_abs). *)
  Section RunBatches.
    Context {A : Type}.
    Variable keyof : A -> list N.
    Variable run : st -> list A -> st * list reply.
    Variable upd : list N -> option V -> list A -> option V.
    Hypothesis run_pt : forall s b k, (run s b).1 !! k = upd k (s !! k) (filter (fun a => keyof a = k) b).
    Hypothesis upd_nil : forall k o, upd k o [] = o.

    Lemma bstep_lookup (n : nat) (items : list A) (i : nat) s k :
      (bstep (fun a => home_s n (keyof a)) run items i s).1 !! k =
      if decide (home_s n k = i) then upd k (s !! k) (filter (fun a => keyof a = k) items) else s !! k.
    Proof.
      transitivity (upd k (s !! k) (filter (fun a => keyof a = k) (batch_of (fun a => home_s n (keyof a)) i items).*2)).
      - unfold bstep. destruct (batch_of _ i items) as [|p b]; [by rewrite upd_nil|].
        rewrite <- run_pt. by destruct (run s _).
      - rewrite batch_of_snd, (filter_key_batch keyof (home_s n)). destruct (decide _); [done|]. apply upd_nil.
    Qed.

    Lemma run_batches_state (items : list A) sh (T : st) :
      Homed sh -> (0 < List.length sh)%nat ->
      (forall k, T !! k = upd k (abs sh !! k) (filter (fun a => keyof a = k) items)) ->
      let sh' := (run_batches (fun a => home_s (List.length sh) (keyof a)) run items sh).1 in
      Homed sh' /\ abs sh' = T /\ List.length sh' = List.length sh.
    Proof.
      intros HH Hn HT sh'.
      assert (List.length sh' = List.length sh) as Hlen.
      { unfold sh'. rewrite run_batches_bstep. cbn. by rewrite fmap_length, imap_length. }
      destruct (family_update sh sh' T HH Hlen Hn) as [H1 H2]; [|done].
      intros i s s' k Hs Hs'. unfold sh' in Hs'. rewrite run_batches_bstep in Hs'. cbn in Hs'.
      rewrite list_lookup_fmap, list_lookup_imap, Hs in Hs'. cbn in Hs'. inversion Hs'; subst s'.
      rewrite bstep_lookup. split; intros Hh.
      - rewrite decide_True by done. rewrite HT. subst i. by rewrite (lookup_abs sh s k HH Hs).
      - by rewrite decide_False.
    Qed.
    Lemma run_batches_abs (items : list A) sh :
      Homed sh -> (0 < List.length sh)%nat ->
      let sh' := (run_batches (fun a => home_s (List.length sh) (keyof a)) run items sh).1 in
      Homed sh' /\ abs sh' = (run (abs sh) items).1 /\ List.length sh' = List.length sh.
    Proof. intros HH Hn. apply run_batches_state; [done|done|]. intros k. apply run_pt. Qed.

    Lemma elem_of_run_batches_outs (items : list A) sh o :
      o ∈ (run_batches (fun a => home_s (List.length sh) (keyof a)) run items sh).2 <->
      exists i s, sh !! i = Some s /\
        let b := batch_of (fun a => home_s (List.length sh) (keyof a)) i items in
        b <> [] /\ o = (b.*1, (run s b.*2).2).
    Proof.
      rewrite run_batches_bstep. cbn. rewrite elem_of_list_omap. unfold bstep. split.
      - intros [x [[i [s [-> Hs]]]%elem_of_lookup_imap Ho]]. exists i, s. split; [done|].
        destruct (batch_of _ i items) as [|p b]; [done|]. destruct (run s _). by inversion Ho.
      - intros [i [s [Hs [Hb ->]]]]. eexists. split; [by apply elem_of_lookup_imap_2|].
        destruct (batch_of _ i items) as [|p b]; [done|]. by destruct (run s _).
    Qed.

    Lemma run_batches_write_back (G : A -> reply) init (items : list A) sh :
      (0 < List.length sh)%nat ->
      (forall i s, sh !! i = Some s ->
         let b := batch_of (fun a => home_s (List.length sh) (keyof a)) i items in
         (run s b.*2).2 = G <$> b.*2) ->
      write_back init (List.length items) (run_batches (fun a => home_s (List.length sh) (keyof a)) run items sh).2
      = G <$> items.
    Proof.
      intros Hn HG. apply write_back_spec.
      - intros o j v Ho Hin. apply elem_of_run_batches_outs in Ho as [i [s [Hs [Hb ->]]]]. cbn in Hin.
        rewrite (HG i s Hs), zip_fst_snd_fmap in Hin. apply elem_of_list_fmap in Hin as [[j' a] [Heq Hin]].
        cbn in Heq. inversion Heq; subst. apply elem_of_batch_of in Hin as [Hl _]. eauto.
      - intros j a Hl. destruct (home_some sh (keyof a) Hn) as [s Hs].
        set (i := home_s (List.length sh) (keyof a)) in *.
        assert ((j, a) ∈ batch_of (fun a => home_s (List.length sh) (keyof a)) i items) as Hin
          by (apply elem_of_batch_of; done).
        eexists. split.
        + apply elem_of_run_batches_outs. exists i, s. split; [done|]. split; [|done].
          intros E. rewrite E in Hin. by apply elem_of_nil in Hin.
        + cbn. rewrite (HG i s Hs), zip_fst_snd_fmap. apply elem_of_list_fmap. by exists (j, a).
    Qed.
  End RunBatches.

  Definition StepOK sh (rq : req P) (res : list st * reply) : Prop :=
    reply_equiv rq res.2 (ref1 X (abs sh) rq).2 /\ abs res.1 = (ref1 X (abs sh) rq).1 /\
    Homed res.1 /\ List.length res.1 = List.length sh.

  Lemma abs_empties n : abs (replicate n (∅ : st)) = ∅.
  Proof.
    apply map_eq; intros k. rewrite lookup_empty. apply lookup_union_list_None, Forall_replicate, lookup_empty.
  Qed.
  Lemma Homed_empties n : Homed (replicate n (∅ : st)).
  Proof.
    intros i s k Hs Hk. apply lookup_replicate in Hs as [-> _]. rewrite lookup_empty in Hk. by destruct Hk.
  Qed.

  Lemma step_flush sh (b : bool) : StepOK sh (Generic (CFlush b)) (exec_generic X home_s sh (CFlush b)).
  Proof.
    unfold StepOK; cbn. rewrite (const_fmap _ sh ∅) by apply (flush_spec X HX).
    split; [done|]. split; [apply abs_empties|]. split; [apply Homed_empties|apply replicate_length].
  Qed.

  Lemma keys_fanout (p : list N) sh :
    let rs := (fun s => exec X s (CKeys p)) <$> sh in
    rs.*1 = sh /\ exists L, List.concat ((fun r => arr_items r.2) <$> rs) = kbulk <$> L /\
                          L ≡ₚ filter (fun k => kmatch X p k = true) (List.concat (map_keys <$> sh)).
  Proof.
    induction sh as [|s sh IH]; cbn.
    - split; [done|]. exists []. done.
    - destruct IH as [IH1 [L [IH2 IH3]]]. destruct (keys_spec X HX s p) as [l [Hl Hp]].
      rewrite Hl. cbn. split; [by f_equal|]. exists (l ++ L). split.
      + rewrite fmap_app. by f_equal.
      + rewrite filter_app. by rewrite Hp, IH3.
  Qed.
  Lemma omap_bulk_kbulk (l : list (list N)) : omap bulk_key (kbulk <$> l) = l.
  Proof. induction l; cbn; [done|]. by f_equal. Qed.

  Lemma keys_fanout_abs (p : list N) sh : Homed sh ->
    let rs := (fun s => exec X s (CKeys p)) <$> sh in
    exists L l, rs.*1 = sh /\ List.concat ((fun r => arr_items r.2) <$> rs) = kbulk <$> L /\
                exec X (abs sh) (CKeys p) = (abs sh, RArr (Some (kbulk <$> l))) /\ L ≡ₚ l.
  Proof.
    intros HH. destruct (keys_fanout p sh) as [H1 [L [H2 H3]]], (keys_spec X HX (abs sh) p) as [l [Hl Hp]].
    exists L, l. split; [done|]. split; [done|]. split; [done|].
    rewrite H3, Hp. apply filter_Permutation. symmetry. apply map_keys_union_list. by apply Homed_Disj.
  Qed.

  Lemma step_keys sh (p : list N) : Homed sh -> StepOK sh (Generic (CKeys p)) (exec_generic X home_s sh (CKeys p)).
  Proof.
    intros HH. unfold StepOK; cbn. destruct (keys_fanout_abs p sh HH) as [L [l [H1 [H2 [Hl HL]]]]].
    rewrite H1, H2, Hl; cbn. split; [|done]. exists (kbulk <$> L), (kbulk <$> l).
    split; [done|]. split; [done|]. by apply fmap_Permutation.
  Qed.

  Lemma step_scan sh (c : N) (p : option (list N)) (n : option N) : Homed sh ->
    StepOK sh (Generic (CScan c p n)) (exec_generic X home_s sh (CScan c p n)).
  Proof.
    intros HH. unfold StepOK; cbn. destruct (keys_fanout_abs (default [42] p) sh HH) as [L [l [H1 [H2 [Hl HL]]]]].
    rewrite H1, H2, Hl; cbn. split; [|done]. rewrite !omap_bulk_kbulk. by apply scan_page_perm.
  Qed.

  Lemma step_dbsize sh : Homed sh -> StepOK sh (Generic CDbSize) (exec_generic X home_s sh CDbSize).
  Proof.
    intros HH. unfold StepOK; cbn.
    assert (((fun s => exec X s CDbSize) <$> sh) = ((fun s => (s, RInt (zsize s))) <$> sh)) as ->.
    { apply list_fmap_ext; intros; apply (dbsize_spec X HX). }
    assert (((fun s : st => (s, RInt (zsize s))) <$> sh).*1 = sh) as ->.
    { rewrite <- list_fmap_compose. apply list_fmap_id. }
    split; [|done]. f_equal. change (Z.of_nat (size (abs sh))) with (zsize (abs sh)).
    unfold abs. rewrite (size_union_list sh (Homed_Disj sh HH)).
    clear HH. induction sh as [|s sh IH]; cbn; [done|]. f_equal. exact IH.
  Qed.

  Lemma step_ping sh (m : option (list N)) : Homed sh -> StepOK sh (Generic (CPing m)) (exec_generic X home_s sh (CPing m)).
  Proof. intros HH. unfold StepOK; destruct m; cbn; done. Qed.

  Lemma at_shard_some sh (i : nat) s (f : st -> st * reply) :
    sh !! i = Some s -> at_shard sh i f = (<[i := (f s).1]> sh, (f s).2).
  Proof. intros Hs. unfold at_shard. rewrite Hs. by destruct (f s). Qed.

  Lemma single_update sh (i : nat) s s' (T : st) :
    Homed sh -> (0 < List.length sh)%nat -> sh !! i = Some s ->
    (forall k, home_s (List.length sh) k = i -> s' !! k = T !! k) ->
    (forall k, home_s (List.length sh) k <> i -> s' !! k = s !! k) ->
    (forall k, home_s (List.length sh) k <> i -> T !! k = abs sh !! k) ->
    abs (<[i := s']> sh) = T /\ Homed (<[i := s']> sh) /\ List.length (<[i := s']> sh) = List.length sh.
  Proof.
    intros HH Hn Hs H1 H2 H3.
    destruct (family_update sh (<[i := s']> sh) T HH (insert_length _ _ _) Hn) as [Ha Hb];
      [|by rewrite insert_length].
    intros j t t' k Ht Ht'. destruct (decide (j = i)) as [->|Hne].
    - rewrite list_lookup_insert in Ht' by (by eapply lookup_lt_Some). inversion Ht'; subst t'.
      rewrite Hs in Ht; inversion Ht; subst t. split; auto.
    - rewrite list_lookup_insert_ne in Ht' by done. rewrite Ht in Ht'; inversion Ht'; subst t'.
      split; [|done]. intros Hk. rewrite H3 by congruence. subst j. symmetry. by apply lookup_abs.
  Qed.
  Lemma single_update_op sh (i : nat) s (g : st -> st) :
    Homed sh -> (0 < List.length sh)%nat -> sh !! i = Some s ->
    (forall k, home_s (List.length sh) k = i -> g s !! k = g (abs sh) !! k) ->
    (forall k t, home_s (List.length sh) k <> i -> g t !! k = t !! k) ->
    abs (<[i := g s]> sh) = g (abs sh) /\ Homed (<[i := g s]> sh) /\ List.length (<[i := g s]> sh) = List.length sh.
  Proof. intros HH Hn Hs H1 H2. apply (single_update sh i s); auto. Qed.

  Lemma step_fastget sh (b : bool) k : Homed sh -> (0 < List.length sh)%nat ->
    StepOK sh (FastGet b k) (execN X home_s home_b sh (FastGet b k)).
  Proof.
    intros HH Hn. unfold StepOK; cbn. rewrite home_eq. destruct (home_some sh k Hn) as [s Hs]. rewrite Hs.
    rewrite (get_direct_spec X HX), (lookup_abs sh s k HH Hs). done.
  Qed.

  Lemma alter_home sh k s (f : option V -> option V) :
    Homed sh -> (0 < List.length sh)%nat -> sh !! home_s (List.length sh) k = Some s ->
    let sh' := <[home_s (List.length sh) k := partial_alter f k s]> sh in
    abs sh' = partial_alter f k (abs sh) /\ Homed sh' /\ List.length sh' = List.length sh.
  Proof.
    intros HH Hn Hs. apply (single_update_op sh _ s (partial_alter f k)); auto.
    - intros k' Hk'. destruct (decide (k' = k)) as [->|Hne].
      + by rewrite !lookup_partial_alter, (lookup_abs sh s k HH Hs).
      + rewrite !lookup_partial_alter_ne by done. symmetry. apply lookup_abs; [done|]. by rewrite Hk'.
    - intros k' t Hk'. apply lookup_partial_alter_ne. congruence.
  Qed.

  Lemma step_fastset sh (b : bool) k (v : list N) : Homed sh -> (0 < List.length sh)%nat ->
    StepOK sh (FastSet b k v) (execN X home_s home_b sh (FastSet b k v)).
  Proof.
    intros HH Hn. unfold StepOK; cbn. rewrite home_eq. destruct (home_some sh k Hn) as [s Hs].
    rewrite (at_shard_some sh _ s _ Hs), (set_direct_spec X HX). cbn. split; [done|].
    exact (alter_home sh k s (fun _ => Some (fset X v)) HH Hn Hs).
  Qed.

  Lemma step_whole sh (i : nat) s (c : cmd P) :
    Homed sh -> (0 < List.length sh)%nat -> sh !! i = Some s -> respects X c ->
    (forall k, k ∈ cmd_keys c -> home_s (List.length sh) k = i) ->
    let res := at_shard sh i (fun s => exec X s c) in
    res.2 = (exec X (abs sh) c).2 /\ abs res.1 = (exec X (abs sh) c).1 /\ Homed res.1 /\
    List.length res.1 = List.length sh.
  Proof.
    intros HH Hn Hs Hr Hk res. unfold res. rewrite (at_shard_some sh i s _ Hs). cbn.
    assert (forall k, k ∈ cmd_keys c -> s !! k = abs sh !! k) as Hag.
    { intros k Hin. symmetry. apply lookup_abs; [done|]. by rewrite (Hk k Hin). }
    destruct (key_local X HX c Hr s (abs sh) Hag) as [Hrep Hst]. split; [done|].
    destruct (single_update_op sh i s (fun t => (exec X t c).1) HH Hn Hs) as [H1 [H2 H3]]; auto.
    - intros k Hh. destruct (decide (k ∈ cmd_keys c)) as [Hin|Hnin]; [by apply Hst|].
      rewrite !(key_frame X HX c Hr) by done. symmetry. apply lookup_abs; [done|]. by rewrite Hh.
    - intros k t Hh. apply (key_frame X HX c Hr). intros Hin. by apply Hh, Hk.
  Qed.

  Lemma default_target sh (c : cmd P) :
    (0 < List.length sh)%nat -> WfCmd c -> default_routed c -> ~ CrossShard home_s (List.length sh) c ->
    exists i s, sh !! i = Some s /\ exec_default X home_s sh c = at_shard sh i (fun s => exec X s c) /\
                (forall k, k ∈ cmd_keys c -> home_s (List.length sh) k = i).
  Proof.
    intros Hn Hwf Hd Hcs.
    assert (routed_keys c = cmd_keys c) as Hrk by (by destruct c).
    assert (forall k1 k2, k1 ∈ cmd_keys c -> k2 ∈ cmd_keys c ->
              home_s (List.length sh) k1 = home_s (List.length sh) k2) as Hsame.
    { intros k1 k2 H1 H2. destruct (decide (home_s (List.length sh) k1 = home_s (List.length sh) k2)); [done|].
      exfalso. apply Hcs. exists k1, k2. by rewrite Hrk. }
    unfold exec_default. destruct (cmd_keys c) as [|k0 ks] eqn:EK.
    - assert (primary_key c = None) as ->.
      { unfold primary_key. rewrite EK. by destruct (table_row _) as [[[] ?]|]. }
      destruct (lookup_lt_is_Some_2 sh 0 Hn) as [s Hs]. exists O, s. split; [done|]. split; [done|].
      intros k Hk. by apply elem_of_nil in Hk.
    - rewrite (primary_of_wf c Hwf Hd) by (by rewrite EK). rewrite EK. cbn.
      destruct (home_some sh k0 Hn) as [s Hs]. eexists _, s. split; [done|]. split; [done|].
      intros k Hk. apply Hsame; [done|]. apply elem_of_cons; auto.
  Qed.

  Lemma count_present_cons (S S' : st) k ks : S !! k = S' !! k ->
    count_present S (k :: ks) = (count_present S' [k] + count_present S ks)%Z.
  Proof.
    intros E. unfold count_present. rewrite !filter_cons, filter_nil, E. destruct (decide _); cbn [List.length]; lia.
  Qed.

  Lemma exists_fold sh (ks : list (list N)) (z : Z) : Homed sh -> (0 < List.length sh)%nat ->
    foldl (fun acc k =>
        let '(sh', r) := at_shard acc.1 (home_s (List.length sh) k) (fun s => exec X s (CExists [k])) in
        (sh', (acc.2 + int_of r)%Z)) (sh, z) ks
    = (sh, (z + count_present (abs sh) ks)%Z).
  Proof.
    intros HH Hn. revert z. induction ks as [|k ks IH]; intros z.
    - cbn. f_equal. change (count_present (abs sh) []) with 0%Z. lia.
    - cbn [foldl]. cbn [fst snd]. destruct (home_some sh k Hn) as [s Hs].
      rewrite (at_shard_some sh _ s _ Hs), (exists_spec X HX). cbn [fst snd int_of].
      rewrite (list_insert_id sh _ s Hs). rewrite IH. f_equal.
      rewrite (count_present_cons (abs sh) s k ks) by (by apply lookup_abs). lia.
  Qed.

  Lemma step_exists sh (ks : list (list N)) : Homed sh -> (0 < List.length sh)%nat ->
    StepOK sh (Generic (CExists ks)) (exec_generic X home_s sh (CExists ks)).
  Proof.
    intros HH Hn. unfold StepOK. cbn [exec_generic ref1 ref_generic]. rewrite (exists_fold sh ks 0 HH Hn).
    cbn. rewrite Z.add_0_l. done.
  Qed.

  Lemma del_run_cons {W} (s : gmap (list N) W) k ks :
    del_run s (k :: ks) = ((del_run (delete k s) ks).1,
                           ((if bool_decide (is_Some (s !! k)) then 1 else 0) + (del_run (delete k s) ks).2)%Z).
  Proof. cbn. by destruct (del_run (delete k s) ks). Qed.

  (* [upd] of DEL: the key goes if any item names it *)
  Definition upd_del (k : list N) (o : option V) (l : list (list N)) : option V :=
    match l with [] => o | _ => None end.
  Lemma del_run_lookup s (ks : list (list N)) k :
    (del_run s ks).1 !! k = upd_del k (s !! k) (filter (fun a => a = k) ks).
  Proof.
    revert s; induction ks as [|a ks IH]; intros s; [done|].
    rewrite del_run_cons. cbn [fst]. rewrite IH, filter_cons. destruct (decide (a = k)) as [->|Hne].
    - rewrite lookup_delete. cbn. by destruct (filter _ ks).
    - by rewrite lookup_delete_ne.
  Qed.
  Lemma del_run_count s (ks : list (list N)) : (del_run s ks).2 = (zsize s - zsize (del_run s ks).1)%Z.
  Proof.
    revert s; induction ks as [|a ks IH]; intros s; [cbn; lia|].
    rewrite del_run_cons. cbn [fst snd]. rewrite IH. unfold zsize.
    destruct (s !! a) as [v|] eqn:E.
    - rewrite bool_decide_eq_true_2 by eauto. rewrite (map_size_delete_Some a s) by eauto.
      assert (0 < size s)%nat. { destruct (decide (size s = 0)%nat) as [Hz|]; [|lia].
        apply map_size_empty_inv in Hz. subst. by rewrite lookup_empty in E. }
      lia.
    - rewrite bool_decide_eq_false_2 by (intros [? ?]; congruence).
      rewrite (map_size_delete_None a s) by done. lia.
  Qed.

  Lemma sum_ints_app l1 l2 : sum_ints (l1 ++ l2) = (sum_ints l1 + sum_ints l2)%Z.
  Proof. unfold sum_ints. induction l1 as [|r l1 IH]; cbn [app foldr]; lia. Qed.

  Lemma sum_del_outs (G : nat -> st -> st * option (list nat * list reply)) sh :
    (forall i s, sh !! i = Some s ->
       match (G i s).2 with Some o => sum_ints o.2 | None => 0%Z end = (zsize s - zsize (G i s).1)%Z) ->
    sum_ints (List.concat (omap snd (imap G sh)).*2) = (zsum (zsize <$> sh) - zsum (zsize <$> (imap G sh).*1))%Z.
  Proof.
    revert G; induction sh as [|s sh IH]; intros G HG; [done|].
    rewrite imap_cons. pose proof (HG O s eq_refl) as H0.
    specialize (IH (G ∘ S) (fun i t Ht => HG (S i) t Ht)).
    cbn [omap list_omap fmap list_fmap]. destruct (G O s) as [s' [o|]]; cbn [snd fst] in *.
    - cbn. rewrite sum_ints_app. cbn in IH. rewrite IH. unfold zsum in *. lia.
    - cbn. cbn in IH. rewrite IH. unfold zsum in *. lia.
  Qed.

  Lemma step_del sh (ks : list (list N)) : Homed sh -> (0 < List.length sh)%nat ->
    StepOK sh (Generic (CDel ks)) (exec_generic X home_s sh (CDel ks)).
  Proof.
    intros HH Hn. unfold StepOK. cbn [exec_generic ref1 ref_generic].
    destruct (1 <? List.length ks)%nat eqn:Elen.
    - (* fan-out *)
      set (run := fun (s : st) (b : list (list N)) => let '(s', r) := exec X s (CDel b) in (s', [r])).
      assert (forall s b, run s b = ((del_run s b).1, [RInt (del_run s b).2])) as Hrun.
      { intros s b. unfold run. by rewrite (del_spec X HX). }
      (* the lemmas of RunBatches speak of [fun a => home_s n (keyof a)]; here keyof is [id], and the
         goal has to show that shape to the eye *)
      change (home_s (List.length sh)) with (fun a : list N => home_s (List.length sh) (id a)).
      destruct (run_batches_abs id run upd_del) with (items := ks) (sh := sh) as [H1 [H2 H3]]; auto.
      { intros s b k. rewrite Hrun. cbn. apply del_run_lookup. }
      rewrite Hrun in H2.
      rewrite run_batches_bstep in *. cbn [fst snd] in *. split; [|done]. f_equal. rewrite sum_del_outs.
      + rewrite <- !size_union_list by (by apply Homed_Disj). fold (abs sh). unfold abs in H2. rewrite H2.
        by rewrite (del_run_count (abs sh) ks).
      + intros i s Hs. unfold bstep. destruct (batch_of _ i ks) as [|p b]; [cbn; lia|].
        rewrite Hrun. cbn [fst snd sum_ints foldr int_of]. rewrite del_run_count. lia.
    - (* at most one key: the default arm *)
      assert (primary_key (CDel ks : cmd P) = hd_error ks) as Hp by reflexivity.
      unfold exec_default. rewrite Hp. destruct ks as [|k [|k2 ks]]; [| |cbn in Elen; done].
      + cbn [hd_error]. destruct (lookup_lt_is_Some_2 sh 0 Hn) as [s Hs].
        rewrite (at_shard_some sh _ s _ Hs), (del_spec X HX). cbn. rewrite (list_insert_id sh _ s Hs). done.
      + cbn [hd_error]. destruct (home_some sh k Hn) as [s Hs].
        rewrite (at_shard_some sh _ s _ Hs), (del_spec X HX). cbn [fst snd].
        rewrite !del_run_cons. cbn [del_run fst snd].
        rewrite (lookup_abs sh s k HH Hs). split; [done|].
        exact (alter_home sh k s (fun _ => None) HH Hn Hs).
  Qed.

  (* [upd] of the reads *)
  Definition upd_keep (k : list N) (o : option V) (l : list (list N)) : option V := o.

  (* MGET and the pipelined GET: every shard reads its batch, [g] of what it finds *)
  Lemma step_read (g : option V -> reply) (run : st -> list (list N) -> st * list reply) sh (ks : list (list N)) :
    Homed sh -> (0 < List.length sh)%nat -> (forall s b, run s b = (s, (fun k => g (s !! k)) <$> b)) ->
    let res := (let '(sh', outs) := run_batches (home_s (List.length sh)) run ks sh in
                (sh', RArr (Some (write_back (RBulk None) (List.length ks) outs)))) in
    res.2 = RArr (Some ((fun k => g (abs sh !! k)) <$> ks)) /\ abs res.1 = abs sh /\
    Homed res.1 /\ List.length res.1 = List.length sh.
  Proof.
    intros HH Hn Hrun. change (home_s (List.length sh)) with (fun a : list N => home_s (List.length sh) (id a)).
    destruct (run_batches_abs id run upd_keep) with (items := ks) (sh := sh) as [H1 [H2 H3]]; auto.
    { intros s b k. by rewrite Hrun. }
    rewrite Hrun in H2.
    pose proof (run_batches_write_back id run (fun k => g (abs sh !! k)) (RBulk None) ks sh Hn) as Hwb.
    destruct (run_batches _ run ks sh) as [sh' outs]. cbn [fst snd] in *.
    split; [|done]. rewrite Hwb; [done|].
    intros i s Hs. rewrite Hrun. cbn [snd]. apply Forall_fmap_ext_1, Forall_forall. intros k Hk.
    rewrite batch_of_snd, elem_of_list_filter in Hk. destruct Hk as [<- _].
    f_equal. symmetry. by apply lookup_abs.
  Qed.

  Lemma step_mget sh (ks : list (list N)) : Homed sh -> (0 < List.length sh)%nat ->
    StepOK sh (Generic (CMGet ks)) (exec_generic X home_s sh (CMGet ks)).
  Proof.
    intros HH Hn. apply (step_read (bget X)); [done|done|]. intros s b. by rewrite (batchget_spec X HX).
  Qed.

  Lemma step_pipeget sh (ks : list (list N)) : Homed sh -> (0 < List.length sh)%nat ->
    StepOK sh (PipeGet ks) (execN X home_s home_b sh (PipeGet ks)).
  Proof.
    intros HH Hn. unfold StepOK. cbn [execN].
    rewrite (run_batches_ext_rt (home_b (List.length sh)) (home_s (List.length sh))) by apply home_eq.
    apply (step_read (fget X)); [done|done|]. intros s b. f_equal.
    apply list_fmap_ext; intros; apply (get_direct_spec X HX).
  Qed.

  Definition fold_set (f : option V -> list N -> V) (s : st) (kvs : list (list N * list N)) : st :=
    foldl (fun s kv => <[kv.1 := f (s !! kv.1) kv.2]> s) s kvs.
  (* [upd] of MSET and the pipelined SET: fold [f] over the values written to k *)
  Definition upd_set (f : option V -> list N -> V) (k : list N) (o : option V) (l : list (list N * list N)) : option V :=
    foldl (fun o kv => Some (f o kv.2)) o l.
  Lemma fold_set_lookup f s kvs k :
    fold_set f s kvs !! k = upd_set f k (s !! k) (filter (fun kv : list N * list N => kv.1 = k) kvs).
  Proof.
    revert s; induction kvs as [|[a v] kvs IH]; intros s; [done|].
    unfold fold_set in *. cbn [foldl]. rewrite IH, filter_cons. cbn [fst snd].
    destruct (decide (a = k)) as [->|Hne].
    - by rewrite lookup_insert.
    - by rewrite lookup_insert_ne.
  Qed.

  Lemma step_mset sh (kvs : list (list N * list N)) : Homed sh -> (0 < List.length sh)%nat ->
    StepOK sh (Generic (CMSet kvs)) (exec_generic X home_s sh (CMSet kvs)).
  Proof.
    intros HH Hn. unfold StepOK. cbn [exec_generic ref1 ref_generic].
    set (run := fun (s : st) (b : list (list N * list N)) => ((exec X s (CBatchSet b)).1, @List.nil reply)).
    destruct (run_batches_abs fst run (upd_set (bset X))) with (items := kvs) (sh := sh) as [H1 [H2 H3]]; auto.
    { intros s b k. unfold run. cbn [fst]. rewrite (batchset_spec X HX). apply (fold_set_lookup (bset X)). }
    rewrite <- (batchset_spec X HX).
    by destruct (run_batches _ run kvs sh).
  Qed.

  Lemma run_direct_set_eq s (b : list (list N * list N)) :
    run_direct_set X s b = (fold_set (fun _ v => fset X v) s b, (fun _ => ROK) <$> b).
  Proof.
    unfold run_direct_set.
    assert (forall acc, foldl (fun acc kv => let '(s', r) := set_direct X acc.1 kv.1 kv.2 in (s', acc.2 ++ [r])) acc b
            = (fold_set (fun _ v => fset X v) acc.1 b, acc.2 ++ ((fun _ => ROK) <$> b))) as H.
    { induction b as [|[k v] b IH]; intros [s0 rs0]; cbn [foldl fst snd].
      - by rewrite app_nil_r.
      - rewrite (set_direct_spec X HX). rewrite IH. cbn [fst snd]. f_equal. by rewrite <- app_assoc. }
    by rewrite H.
  Qed.

  Lemma step_pipeset sh (kvs : list (list N * list N)) : Homed sh -> (0 < List.length sh)%nat ->
    StepOK sh (PipeSet kvs) (execN X home_s home_b sh (PipeSet kvs)).
  Proof.
    intros HH Hn. unfold StepOK. cbn [execN ref1].
    rewrite (run_batches_ext_rt (fun kv => home_b (List.length sh) kv.1) (fun a => home_s (List.length sh) (fst a)))
      by (intros; apply home_eq).
    destruct (run_batches_abs fst (run_direct_set X) (upd_set (fun _ v => fset X v))) with (items := kvs) (sh := sh)
      as [H1 [H2 H3]]; auto.
    { intros s b k. rewrite run_direct_set_eq. apply fold_set_lookup. }
    rewrite run_direct_set_eq in H2.
    pose proof (run_batches_write_back fst (run_direct_set X) (fun _ => ROK) ROK kvs sh Hn) as Hwb.
    destruct (run_batches _ (run_direct_set X) kvs sh) as [sh' outs]. cbn [fst snd] in *.
    split; [|done]. rewrite Hwb; [done|].
    intros i s Hs. by rewrite run_direct_set_eq.
  Qed.

  Theorem refines_ref1 sh (rq : req P) :
    Homed sh -> (0 < List.length sh)%nat -> SingleHome X home_s (List.length sh) rq ->
    StepOK sh rq (execN X home_s home_b sh rq).
  Proof.
    intros HH Hn HS. destruct rq as [c|b k|b k v|ks|kvs].
    - cbn [execN]. destruct HS as [Hwf [Hcs Hr]].
      assert (default_routed c -> StepOK sh (Generic c) (exec_default X home_s sh c)) as Hdef.
      { intros Hd. destruct (default_target sh c Hn Hwf Hd Hcs) as [i [s [Hs [-> Hk]]]].
        destruct (step_whole sh i s c HH Hn Hs (Hr Hd) Hk) as [H1 [H2 [H3 H4]]].
        unfold StepOK. destruct c; by destruct Hd. }
      destruct c; try (by apply Hdef).
      + by apply step_ping.
      + by apply step_flush.
      + by apply step_keys.
      + by apply step_mget.
      + by apply step_mset.
      + by apply step_dbsize.
      + by apply step_scan.
      + by apply step_del.
      + by apply step_exists.
    - by apply step_fastget.
    - by apply step_fastset.
    - by apply step_pipeget.
    - by apply step_pipeset.
  Qed.

  Lemma home_one k : home_s 1 k = O.
  Proof. pose proof (home_lt 1 k). lia. Qed.
  Lemma Homed_single (S : st) : Homed [S].
  Proof. intros i s k Hi _. cbn. rewrite home_one. destruct i; [done|]. by destruct i. Qed.
  Lemma abs_single (S : st) : abs [S] = S.
  Proof. unfold abs. cbn. apply (right_id ∅ (∪)). Qed.
  Lemma SingleHome_one n (rq : req P) : SingleHome X home_s n rq -> SingleHome X home_s 1 rq.
  Proof.
    destruct rq; try done. intros [H1 [H2 H3]]. split; [done|]. split; [|done].
    intros [k1 [k2 [_ [_ Hne]]]]. apply Hne. by rewrite !home_one.
  Qed.
  Lemma reply_equiv_join (rq : req P) a b c : reply_equiv rq a c -> reply_equiv rq b c -> reply_equiv rq a b.
  Proof.
    destruct rq as [[]| | | |]; cbn; try (intros -> ->; done).
    intros [la [lc [-> [-> Hp]]]] [lb [lc' [-> [Heq Hp']]]]. inversion Heq; subst.
    exists la, lb. split; [done|]. split; [done|]. by rewrite Hp, Hp'.
  Qed.

  Theorem refine_step sh (rq : req P) :
    Homed sh -> (0 < List.length sh)%nat -> SingleHome X home_s (List.length sh) rq ->
    let rN := execN X home_s home_b sh rq in
    let r1 := execN X home_s home_b [abs sh] rq in
    reply_equiv rq rN.2 r1.2 /\ r1.1 = [abs rN.1] /\ Homed rN.1 /\ List.length rN.1 = List.length sh.
  Proof.
    intros HH Hn HS rN r1.
    destruct (refines_ref1 sh rq HH Hn HS) as [A1 [A2 [A3 A4]]].
    destruct (refines_ref1 [abs sh] rq (Homed_single _) ltac:(cbn; lia) (SingleHome_one _ _ HS)) as [B1 [B2 [B3 B4]]].
    rewrite abs_single in B1, B2. fold rN in A1, A2, A3, A4. fold r1 in B1, B2, B3, B4.
    split; [by eapply reply_equiv_join|]. split; [|done].
    destruct r1.1 as [|x [|y l]] eqn:E; cbn in B4; try lia.
    rewrite abs_single in B2. congruence.
  Qed.

  Theorem refine_run (rqs : list (req P)) : forall sh,
    Homed sh -> (0 < List.length sh)%nat -> Forall (SingleHome X home_s (List.length sh)) rqs ->
    let rN := runN X home_s home_b sh rqs in
    let r1 := runN X home_s home_b [abs sh] rqs in
    replies_equiv rqs rN.2 r1.2 /\ r1.1 = [abs rN.1] /\ Homed rN.1 /\ List.length rN.1 = List.length sh.
  Proof.
    induction rqs as [|rq rqs IH]; intros sh HH Hn HS; cbn [runN].
    - cbn. done.
    - apply Forall_cons in HS as [HS1 HS2].
      destruct (refine_step sh rq HH Hn HS1) as [A1 [A2 [A3 A4]]].
      destruct (execN X home_s home_b sh rq) as [shN a], (execN X home_s home_b [abs sh] rq) as [sh1 a1].
      cbn [fst snd] in *. subst sh1. rewrite <- A4 in HS2. specialize (IH shN A3 ltac:(lia) HS2).
      destruct (runN X home_s home_b shN rqs) as [shN' l], (runN X home_s home_b [abs shN] rqs) as [sh1' l1].
      cbn [fst snd] in *.
      destruct IH as [I1 [I2 [I3 I4]]]. repeat split; try done. lia.
  Qed.
End Refine.

Definition StepOK_str {V P} (X : executor V P) := @StepOK V P X home_str.

Lemma SingleHome_same_key {V P} (X : executor V P) home n (c : cmd P) :
  WfCmd c -> (forall a b, a ∈ routed_keys c -> b ∈ routed_keys c -> a = b) ->
  (default_routed c -> respects X c) -> SingleHome X home n (Generic c).
Proof.
  intros Hwf Hk Hr. split; [done|]. split; [|done].
  intros [a [b [Ha [Hb Hne]]]]. apply Hne. by rewrite (Hk a b Ha Hb).
Qed.

Lemma apply_writes_agree (s1 s2 : gmap (list N) val) kws k :
  s1 !! k = s2 !! k -> apply_writes s1 kws !! k = apply_writes s2 kws !! k.
Proof.
  revert s1 s2; induction kws as [|[a w] kws IH]; intros s1 s2 H; [done|].
  cbn [apply_writes foldl]. apply IH. cbn [fst snd]. destruct w as [[v|]|]; [| |done].
  - destruct (decide (a = k)) as [->|]; [by rewrite !lookup_insert|by rewrite !lookup_insert_ne].
  - destruct (decide (a = k)) as [->|]; [by rewrite !lookup_delete|by rewrite !lookup_delete_ne].
Qed.
Lemma apply_writes_other (s : gmap (list N) val) kws k :
  (forall kw, kw ∈ kws -> kw.1 <> k) -> apply_writes s kws !! k = s !! k.
Proof.
  revert s; induction kws as [|[a w] kws IH]; intros s H; [done|].
  cbn [apply_writes foldl]. unfold apply_writes in IH. rewrite IH.
  - cbn [fst snd]. assert (a <> k) by (apply (H (a, w)); apply elem_of_list_here).
    destruct w as [[v|]|]; [by rewrite lookup_insert_ne|by rewrite lookup_delete_ne|done].
  - intros kw Hin. apply H. by apply elem_of_list_further.
Qed.

Lemma mini_ok : exec_ok mini.
Proof.
  (* the eight specifications of single arms hold by computation *)
  split; try done.
  - (* key_local *)
    intros c Hr s1 s2 Hag. destruct c; try (by destruct Hr); cbn [exec mini mini_exec cmd_keys] in *.
    + (* BatchGet *) split; [|intros; by apply Hag]. cbn. do 2 f_equal.
      apply Forall_fmap_ext_1, Forall_forall. intros k Hk. by rewrite (Hag k Hk).
    + (* BatchSet *) split; [done|]. intros k Hk. cbn [fst].
      pose proof (fold_set_lookup (fun (_ : option val) v => VStr v)) as HF. unfold fold_set in HF.
      rewrite !HF. by rewrite (Hag k Hk).
    + (* COp *) cbn in Hr. rewrite Hr.
      assert (((fun k => s1 !! k) <$> ks) = ((fun k => s2 !! k) <$> ks)) as ->.
      { apply Forall_fmap_ext_1, Forall_forall. intros k Hk. by apply Hag. }
      destruct (mini_op tag ks p _) as [ws r]. cbn [fst snd]. split; [done|].
      intros k Hk. apply apply_writes_agree. by apply Hag.
  - (* key_frame *)
    intros c Hr s k Hk. destruct c; try (by destruct Hr); cbn [exec mini mini_exec cmd_keys] in *.
    + (* BatchSet *) cbn [fst]. pose proof (fold_set_lookup (fun (_ : option val) v => VStr v)) as HF. unfold fold_set in HF.
      rewrite HF.
      assert (filter (fun kv : list N * list N => kv.1 = k) kvs = []) as ->; [|done].
      apply elem_of_nil_inv. intros kv Hin. apply elem_of_list_filter in Hin as [<- Hin].
      apply Hk. apply elem_of_list_fmap. eauto.
    + (* COp *) cbn in Hr. rewrite Hr. destruct (mini_op tag ks p _) as [ws r]. cbn [fst].
      apply apply_writes_other. intros [a w] Hin Heq. cbn in Heq. subst a.
      apply elem_of_zip_l in Hin. done.
  - (* keys_spec *) intros s p. eexists. split; [reflexivity|done].
Qed.
