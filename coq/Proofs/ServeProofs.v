(* "What a replica serves to clients equals what its replication state says": for every node
   of the cluster model, along every run whose commands and deliveries keep each key to one
   kind (string keys: SET/APPEND/DEL; hash keys: HSET/HDEL), the executor's keyspace is exactly
   the materialisation of the replication state. *)
From stdpp Require Import gmap.
From Coq Require Import NArith Lia.
From RV Require Import Lib.Hex Model.Crdt Proofs.CrdtProofs Model.ShardState
  Proofs.ShardStateProofs Model.Cluster Proofs.ClusterProofs Proofs.UniqueStamps.
Local Open Scope N_scope.

Definition reg_ok (r : lww) : Prop := lw_tomb r = false → ∃ v, lw_val r = Some v.
Definition hash_ok (h : gmap (list N) lww) : Prop := map_Forall (λ _ r, reg_ok r) h.

(* what the executor should hold for a key, given its replicated value *)
Definition mat (o : option rvalue) : option xval :=
  match o with
  | Some m =>
      match rv_crdt m with
      | CLww r => match lww_get r with Some v => Some (XStr v) | None => None end
      | CHash h => if bool_decide (live_fields h = ∅) then None else Some (XHash (live_fields h))
      | _ => None
      end
  | None => None
  end.

Lemma serve_of_mat n k :
  n_x n !! k = mat (sh_keys (n_sh n) !! k) → serve n k = state_says n k.
Proof.
  unfold serve, state_says, mat. intros ->.
  destruct (sh_keys (n_sh n) !! k) as [m|]; [|done].
  destruct (rv_crdt m) as [r| | | | |h]; try done.
  - by destruct (lww_get r).
  - by destruct (bool_decide _).
Qed.

(* the hash an executor entry holds, empty when there is none: the reading [materialise] and
   [desugar] apply to the current entry *)
Definition xhash (o : option xval) : gmap (list N) (list N) :=
  match o with Some (XHash g) => g | _ => ∅ end.

Lemma live_insert_live h f x st :
  live_fields (<[ f := Lww (Some x) st false ]> h) = <[ f := x ]> (live_fields h).
Proof. unfold live_fields. by rewrite (omap_insert_Some _ _ _ _ x). Qed.

Lemma live_insert_tomb h f st :
  live_fields (<[ f := Lww None st true ]> h) = delete f (live_fields h).
Proof. unfold live_fields. by rewrite omap_insert_None. Qed.

Lemma live_lookup h f :
  live_fields h !! f = match h !! f with Some r => lww_get r | None => None end.
Proof. unfold live_fields. rewrite lookup_omap. by destruct (h !! f). Qed.

Lemma live_fields_dom h f : is_Some (live_fields h !! f) → is_Some (h !! f).
Proof. rewrite live_lookup. destruct (h !! f); [eauto|by intros []]. Qed.

Lemma xhash_mat m : xhash (mat (Some m)) = live_fields (as_hash (rv_crdt m)).
Proof.
  unfold mat, live_fields. destruct (rv_crdt m) as [r| | | | |h]; simpl; rewrite ?omap_empty; try done.
  - by destruct (lww_get r).
  - destruct (bool_decide (omap lww_get h = ∅)) eqn:E; [|done].
    apply bool_decide_eq_true in E. by rewrite E.
Qed.

Lemma hset_all_cons h f x fs : hset_all h ((f, x) :: fs) = hset_all (<[ f := x ]> h) fs.
Proof. done. Qed.
Lemma hdel_all_cons h f fs : hdel_all h (f :: fs) = hdel_all (delete f h) fs.
Proof. done. Qed.

Lemma hdel_all_empty fs : hdel_all (∅ : gmap (list N) (list N)) fs = ∅.
Proof. induction fs as [|f fs IH]; [done|]. by rewrite hdel_all_cons, delete_empty. Qed.

Lemma hash_set_all_live fs : ∀ s v h,
  rv_crdt v = CHash h → hash_ok h →
  ∃ h', rv_crdt (hash_set_all s v fs).2 = CHash h' ∧ hash_ok h' ∧
        live_fields h' = hset_all (live_fields h) fs.
Proof.
  induction fs as [|[f x] fs IH]; intros s v h Hc Hok.
  - by exists h.
  - rewrite hash_set_all_cons, hset_all_cons, Hc. cbn [as_hash].
    rewrite <- (live_insert_live h f x (now (tick s))). apply IH; [done|].
    apply map_Forall_insert_2; [|done]. intros _. by exists x.
Qed.

Lemma hash_delete_all_live fs : ∀ s v h,
  rv_crdt v = CHash h → hash_ok h →
  ∃ h', rv_crdt (hash_delete_all s v fs).2 = CHash h' ∧ hash_ok h' ∧
        live_fields h' = hdel_all (live_fields h) fs.
Proof.
  induction fs as [|f fs IH]; intros s v h Hc Hok.
  - by exists h.
  - rewrite hash_delete_all_cons, hdel_all_cons. unfold rv_hash_delete. rewrite Hc.
    destruct (h !! f) as [r0|] eqn:Hf; cbn [fst snd].
    + rewrite <- (live_insert_tomb h f (now (tick s))). apply IH; [done|].
      apply map_Forall_insert_2; [|done]. intros [=].
    + rewrite (delete_notin (live_fields h) f) by (by rewrite live_lookup, Hf). by apply IH.
Qed.

Lemma hset_all_nonempty fs : ∀ h, fs ≠ [] ∨ h ≠ ∅ → hset_all h fs ≠ ∅.
Proof.
  induction fs as [|[f x] fs IH]; intros h Hne.
  - by destruct Hne.
  - rewrite hset_all_cons. apply IH. right. apply insert_non_empty.
Qed.

Lemma hdel_all_lookup fs : ∀ (h : gmap (list N) (list N)) f,
  hdel_all h fs !! f = if bool_decide (f ∈ fs) then None else h !! f.
Proof.
  induction fs as [|g fs IH]; intros h f.
  - by rewrite bool_decide_eq_false_2 by apply not_elem_of_nil.
  - rewrite hdel_all_cons, IH. destruct (decide (f = g)) as [->|Hne].
    + rewrite (bool_decide_eq_true_2 (g ∈ g :: fs)) by left.
      destruct (bool_decide (g ∈ fs)); [done|]. by rewrite lookup_delete.
    + rewrite lookup_delete_ne by done.
      by rewrite (bool_decide_ext (f ∈ g :: fs) (f ∈ fs)) by (rewrite elem_of_cons; tauto).
Qed.

Lemma tomb_fields_spec h f : f ∈ tomb_fields h ↔ ∃ r, h !! f = Some r ∧ lw_tomb r = true.
Proof.
  unfold tomb_fields. rewrite elem_of_list_fmap. split.
  - intros ([f' r] & -> & Hin). apply elem_of_list_filter in Hin as [Ht Hin].
    apply elem_of_map_to_list in Hin. simpl in *. eauto.
  - intros (r & Hf & Ht). exists (f, r). split; [done|].
    apply elem_of_list_filter. split; [done|]. by apply elem_of_map_to_list.
Qed.

(* old live fields all occur in the merged hash; then "HSET live, HDEL tombstones" leaves
   exactly the live fields of the merged hash *)
Lemma materialise_hash_result (h : gmap (list N) lww) (h0 : gmap (list N) (list N)) :
  hash_ok h → (∀ f, is_Some (h0 !! f) → is_Some (h !! f)) →
  hdel_all (live_fields h ∪ h0) (tomb_fields h) = live_fields h.
Proof.
  intros Hok Hdom. apply map_eq; intros f. rewrite hdel_all_lookup, live_lookup.
  destruct (h !! f) as [r|] eqn:Hf.
  - destruct (lw_tomb r) eqn:Ht.
    + rewrite bool_decide_eq_true_2 by (apply tomb_fields_spec; eauto).
      unfold lww_get. by rewrite Ht.
    + rewrite bool_decide_eq_false_2.
      2:{ rewrite tomb_fields_spec. intros (r' & Hr' & Ht'). congruence. }
      destruct (Hok f r Hf Ht) as [v Hv].
      rewrite lookup_union_l'; rewrite live_lookup, Hf; unfold lww_get; rewrite Ht, Hv; done.
  - rewrite bool_decide_eq_false_2.
    2:{ rewrite tomb_fields_spec. intros (r' & Hr' & _). congruence. }
    rewrite lookup_union_r by (by rewrite live_lookup, Hf).
    destruct (h0 !! f) eqn:H0; [|done]. destruct (Hdom f) as [? ?]; [eauto|congruence].
Qed.

Lemma hash_merge_dom a b f : is_Some (a !! f) → is_Some (hash_merge a b !! f).
Proof.
  intros [r Hr]. unfold hash_merge. rewrite lookup_union_with, Hr. destruct (b !! f); simpl; eauto.
Qed.

Lemma rv_merge_lww a b ra rb :
  rv_crdt a = CLww ra → rv_crdt b = CLww rb → rv_crdt (rv_merge a b) = CLww (lww_merge ra rb).
Proof. unfold rv_merge, merge_with_ts; simpl. by intros -> ->. Qed.

Lemma rv_merge_hash a b ha hb :
  rv_crdt a = CHash ha → rv_crdt b = CHash hb → rv_crdt (rv_merge a b) = CHash (hash_merge ha hb).
Proof. unfold rv_merge, merge_with_ts; simpl. by intros -> ->. Qed.

Definition ckey (c : ccmd) : list N :=
  match c with CSet k _ _ _ | CDel k | CAppend k _ | CHSet k _ | CHDel k _ => k end.

Lemma xexec_other x c k : k ≠ ckey c → (xexec x c).1 !! k = x !! k.
Proof.
  intros Hne. destruct c as [k' v nx xx|k'|k' v|k' fs|k' fs]; cbn [xexec ckey] in *.
  - destruct (nx && _); [done|]. destruct (xx && _); [done|]. cbn [fst]. by rewrite lookup_insert_ne.
  - destruct (x !! k'); cbn [fst]; [by rewrite lookup_delete_ne|done].
  - destruct (x !! k') as [[s|h]|]; cbn [fst]; rewrite ?lookup_insert_ne; done.
  - destruct (x !! k') as [[s|h]|]; cbn [fst]; rewrite ?lookup_insert_ne; done.
  - destruct (x !! k') as [[s|h]|]; cbn [fst]; try done.
    destruct (bool_decide _); cbn [fst]; [by rewrite lookup_delete_ne|by rewrite lookup_insert_ne].
Qed.

(* what a local event does to the executor's entry of its key: through [mat], the executor and
   the replication state move in step (xexec_eff, step_mat) *)
Definition xeff (e : event) (o : option xval) : option xval :=
  match e with
  | EWrite _ v _ => Some (XStr v)
  | EHSet _ fs => Some (XHash (hset_all (xhash o) fs))
  | EHDel _ fs =>
      let h := hdel_all (xhash o) fs in if bool_decide (h = ∅) then None else Some (XHash h)
  | _ => None
  end.

Section serve.
  Context (K : list N → N).

  Definition val_ok (k : list N) (m : rvalue) : Prop :=
    (K k = 0 ∧ ∃ r, rv_crdt m = CLww r ∧ reg_ok r) ∨
    (K k = 5 ∧ ∃ h, rv_crdt m = CHash h ∧ hash_ok h).

  Definition SInv (n : node) : Prop :=
    ∀ k, n_x n !! k = mat (sh_keys (n_sh n) !! k) ∧
         ∀ m, sh_keys (n_sh n) !! k = Some m → val_ok k m.

  Definition cmd_ok (c : ccmd) : Prop :=
    match c with
    | CSet k _ _ _ | CAppend k _ | CDel k => K k = 0
    | CHSet k fs => K k = 5 ∧ fs ≠ []
    | CHDel k _ => K k = 5
    end.

  (* the events the glue records for such commands *)
  Definition ev_ok (e : event) : Prop :=
    match e with
    | EWrite k _ None | EDelete k => K k = 0
    | EHSet k fs => K k = 5 ∧ fs ≠ []
    | EHDel k _ => K k = 5
    | _ => False
    end.

  Definition xkind_ok (k : list N) (o : option xval) : Prop :=
    match o with Some (XStr _) => K k = 0 | Some (XHash _) => K k = 5 | None => True end.

  Lemma mat_kind k o : (∀ m, o = Some m → val_ok k m) → xkind_ok k (mat o).
  Proof.
    intros Hv. destruct o as [m|]; [|done]. unfold mat.
    destruct (Hv m eq_refl) as [(HK & r & -> & _)|(HK & h & -> & _)].
    - by destruct (lww_get r).
    - by destruct (bool_decide _).
  Qed.

  Lemma SInv_init rid : SInv (node_init rid).
  Proof. intros k. unfold node_init, shard_init; simpl. rewrite !lookup_empty. split; [done|]. intros m [=]. Qed.

  Lemma SInv_update n x1 s1 hist b k :
    SInv n →
    (∀ k', k' ≠ k → x1 !! k' = n_x n !! k') →
    (∀ k', k' ≠ k → sh_keys s1 !! k' = sh_keys (n_sh n) !! k') →
    x1 !! k = mat (sh_keys s1 !! k) → (∀ m, sh_keys s1 !! k = Some m → val_ok k m) →
    SInv (Node x1 s1 hist b).
  Proof.
    intros HS Hx Hs Hk Hv k'. simpl. destruct (decide (k' = k)) as [->|Hne]; [done|].
    rewrite (Hx k' Hne), (Hs k' Hne). apply HS.
  Qed.

  Lemma xexec_eff x c x1 r :
    cmd_ok c → xkind_ok (ckey c) (x !! ckey c) → xexec x c = (x1, r) →
    match record_post x1 c r with
    | Some e => ev_key e = ckey c ∧ ev_ok e ∧ x1 !! ckey c = xeff e (x !! ckey c)
    | None => x1 = x
    end.
  Proof.
    destruct c as [k v nx xx|k|k v|k fs|k fs]; cbn [cmd_ok ckey xexec]; intros Hc Hkind Hx.
    - destruct (nx && _); [by injection Hx as <- <-|]. destruct (xx && _); [by injection Hx as <- <-|].
      injection Hx as <- <-. simpl. by rewrite lookup_insert.
    - destruct (x !! k) eqn:E; injection Hx as <- <-; simpl; by rewrite ?lookup_delete.
    - destruct (x !! k) as [[s|h]|]; simpl in Hkind.
      + injection Hx as <- <-. cbn [record_post]. rewrite !lookup_insert. by split_and!.
      + rewrite Hc in Hkind. discriminate Hkind.
      + injection Hx as <- <-. cbn [record_post]. rewrite !lookup_insert. by split_and!.
    - destruct Hc as [Hc Hne]. destruct (x !! k) as [[s|h]|]; simpl in Hkind.
      + rewrite Hc in Hkind. discriminate Hkind.
      + injection Hx as <- <-. cbn [record_post xeff xhash ev_key ev_ok]. rewrite lookup_insert. by split_and!.
      + injection Hx as <- <-. cbn [record_post xeff xhash ev_key ev_ok]. rewrite lookup_insert. by split_and!.
    - destruct (x !! k) as [[s|h]|] eqn:E; simpl in Hkind; [rewrite Hc in Hkind; discriminate Hkind| |].
      + simpl in Hx. destruct (bool_decide (hdel_all h fs = ∅)) eqn:Eb; injection Hx as <- <-; simpl; rewrite Eb.
        * by rewrite lookup_delete.
        * by rewrite lookup_insert.
      + injection Hx as <- <-. simpl. by rewrite hdel_all_empty, bool_decide_eq_true_2.
  Qed.

  Lemma step_mat s e s1 od :
    ev_ok e → (∀ m, sh_keys s !! ev_key e = Some m → val_ok (ev_key e) m) → step s e = (s1, od) →
    mat (sh_keys s1 !! ev_key e) = xeff e (mat (sh_keys s !! ev_key e)) ∧
    ∀ m, sh_keys s1 !! ev_key e = Some m → val_ok (ev_key e) m.
  Proof.
    destruct e as [k v [x|]|k|k fs|k fs|k v|k v]; try done; cbn [ev_ok ev_key step]; intros HK Hv Hst.
    - unfold rv_set in Hst. injection Hst as <- _. rewrite put_lookup. split; [done|].
      intros m [= <-]. left. split; [done|]. eexists. split; [done|]. intros _. by exists v.
    - destruct (sh_keys s !! k) as [m|] eqn:E.
      2:{ injection Hst as <- _. by rewrite E. }
      destruct (Hv m eq_refl) as [(_ & r0 & Hr0 & _)|(HK' & _)]; [|congruence].
      unfold rv_delete in Hst. rewrite Hr0 in Hst. injection Hst as <- _. rewrite put_lookup. split; [done|].
      intros m' [= <-]. left. split; [done|]. eexists. split; [done|]. intros [=].
    - destruct HK as [HK Hne]. cbn [xeff].
      set (v0 := match sh_keys s !! k with Some v => v | None => _ end) in Hst.
      assert (H0 : ∃ h0, rv_crdt v0 = CHash h0 ∧ hash_ok h0 ∧ xhash (mat (sh_keys s !! k)) = live_fields h0).
      { unfold v0. destruct (sh_keys s !! k) as [m|].
        - destruct (Hv m eq_refl) as [(HK' & _)|(_ & h & Hh & Hok)]; [congruence|].
          exists h. by rewrite xhash_mat, Hh.
        - exists ∅. split; [done|]. split; [apply map_Forall_empty|]. unfold live_fields. by rewrite omap_empty. }
      destruct H0 as (h0 & Hh0 & Hok0 & ->).
      destruct (hash_set_all_live fs s v0 h0 Hh0 Hok0) as (h' & A & B & C).
      destruct (hash_set_all s v0 fs) as [s' d]. injection Hst as <- _. rewrite put_lookup. cbn [snd] in A. split.
      + unfold mat. rewrite A, C, bool_decide_eq_false_2; [done|]. apply hset_all_nonempty. by left.
      + intros m [= <-]. right. split; [done|]. by exists h'.
    - destruct (sh_keys s !! k) as [m|] eqn:E.
      2:{ injection Hst as <- _. rewrite E. simpl. by rewrite hdel_all_empty, bool_decide_eq_true_2. }
      destruct (Hv m eq_refl) as [(HK' & _)|(_ & h0 & Hh0 & Hok0)]; [congruence|].
      rewrite Hh0 in Hst. cbn [xeff]. rewrite xhash_mat, Hh0. cbn [as_hash].
      destruct (hash_delete_all_live fs s m h0 Hh0 Hok0) as (h' & A & B & C).
      destruct (hash_delete_all s m fs) as [s' d]. injection Hst as <- _. rewrite put_lookup. cbn [snd] in A. split.
      + unfold mat. by rewrite A, C.
      + intros m' [= <-]. right. split; [done|]. by exists h'.
  Qed.

  Lemma node_exec_serve n c n1 r od :
    SInv n → cmd_ok c → node_exec n c = (n1, r, od) →
    SInv n1 ∧ n_glue_fail n1 = n_glue_fail n ∧ (∀ k d, od = Some (k, d) → val_ok k d).
  Proof.
    intros HS Hc Hex. unfold node_exec in Hex.
    destruct (xexec (n_x n) c) as [x1 r1] eqn:Hx. destruct (HS (ckey c)) as [Hcur Hkind].
    assert (He : xkind_ok (ckey c) (n_x n !! ckey c)) by (rewrite Hcur; by apply mat_kind).
    pose proof (xexec_eff _ _ _ _ Hc He Hx) as Hp.
    destruct (record_post x1 c r1) as [e|].
    2:{ subst x1. injection Hex as <- _ <-. split; [exact HS|]. split; [done|]. intros ? ? [=]. }
    destruct Hp as (Hk & Hev & Hx1). rewrite <- Hk in *.
    destruct (step (n_sh n) e) as [s1 od1] eqn:Hst.
    destruct (step_mat _ _ _ _ Hev Hkind Hst) as [Hm Hv1].
    assert (HS1 : ∀ hist, SInv (Node x1 s1 hist (n_glue_fail n))).
    { intros hist. apply (SInv_update n _ _ _ _ (ev_key e) HS).
      - intros k' Hne. rewrite Hk in Hne. pose proof (xexec_other (n_x n) c k' Hne) as H. by rewrite Hx in H.
      - intros k' Hne. by apply (step_other _ _ _ _ k' Hst).
      - by rewrite Hx1, Hcur.
      - exact Hv1. }
    destruct od1 as [d|]; injection Hex as <- _ <-; (split; [apply HS1|]); (split; [done|]).
    - intros k' d' [= <- <-]. apply Hv1. by apply (step_stored _ _ _ _ Hst).
    - intros ? ? [=].
  Qed.

  Lemma val_ok_merge k a b : val_ok k a → val_ok k b → val_ok k (rv_merge a b).
  Proof.
    intros [(HK & ra & Ha & Hoa)|(HK & ha & Ha & Hoa)] [(HK' & rb & Hb & Hob)|(HK' & hb & Hb & Hob)];
      try congruence.
    - left. split; [done|]. exists (lww_merge ra rb). split; [by apply rv_merge_lww|by apply lww_merge_ind].
    - right. split; [done|]. exists (hash_merge ha hb). split; [by apply rv_merge_hash|by apply (hash_merge_Forall reg_ok)].
  Qed.

  Lemma merge_keeps_fields k a b h f :
    val_ok k a → val_ok k b → rv_crdt (rv_merge a b) = CHash h →
    is_Some (as_hash (rv_crdt a) !! f) → is_Some (h !! f).
  Proof.
    intros [(HK & ra & Ha & _)|(HK & ha & Ha & _)] [(HK' & rb & Hb & _)|(HK' & hb & Hb & _)];
      try congruence.
    - rewrite Ha. simpl. rewrite lookup_empty. by intros _ [].
    - rewrite (rv_merge_hash a b ha hb Ha Hb), Ha. intros [= <-]. apply hash_merge_dom.
  Qed.

  Lemma materialise_mat x k m :
    val_ok k m → xkind_ok k (x !! k) →
    (∀ h f, rv_crdt m = CHash h → is_Some (xhash (x !! k) !! f) → is_Some (h !! f)) →
    ∃ x1, materialise x k m = (x1, false) ∧ x1 !! k = mat (Some m) ∧ ∀ k', k' ≠ k → x1 !! k' = x !! k'.
  Proof.
    intros Hv Hkind Hdom. unfold materialise, mat.
    destruct Hv as [(HK & r & -> & Hok)|(HK & h & Hh & Hok)].
    - destruct (lww_get r) as [v|] eqn:Hg.
      { eexists. split; [done|]. split; [by rewrite lookup_insert|]. intros k' Hne. by rewrite lookup_insert_ne. }
      (* a register without a value is a tombstone *)
      unfold lww_get in Hg. destruct (lw_tomb r) eqn:Ht.
      + eexists. split; [done|]. split; [by rewrite lookup_delete|]. intros k' Hne. by rewrite lookup_delete_ne.
      + destruct Hok as [v Hv]; [done|]. rewrite Hv in Hg. discriminate Hg.
    - (* HSET of the live fields, then HDEL of the tombstones, leaves the live fields *)
      pose proof (materialise_hash_result h (xhash (x !! k)) Hok (λ f, Hdom h f Hh)) as Hmr.
      assert (Hres : hdel_all (if bool_decide (live_fields h = ∅) then xhash (x !! k) else live_fields h ∪ xhash (x !! k))
                       (tomb_fields h) = live_fields h).
      { destruct (bool_decide (live_fields h = ∅)) eqn:Eb; [|done].
        apply bool_decide_eq_true in Eb. rewrite Eb, map_empty_union in Hmr. by rewrite Eb. }
      rewrite Hh. clear Hmr Hdom.
      destruct (x !! k) as [[s0|g]|] eqn:Hxk; cbn [xkind_ok xhash] in Hkind, Hres.
      { rewrite HK in Hkind. discriminate Hkind. }
      all: rewrite Hres.
      + rewrite andb_false_r. destruct (bool_decide (live_fields h = ∅)); eexists; (split; [done|]).
        * split; [by rewrite lookup_delete|]. intros k' Hne. by rewrite lookup_delete_ne.
        * split; [by rewrite lookup_insert|]. intros k' Hne. by rewrite lookup_insert_ne.
      + destruct (bool_decide (live_fields h = ∅)); eexists; (split; [done|]).
        * done.
        * split; [by rewrite lookup_insert|]. intros k' Hne. by rewrite lookup_insert_ne.
  Qed.

  Lemma node_deliver_serve n k d :
    SInv n → val_ok k d → SInv (node_deliver n k d) ∧ n_glue_fail (node_deliver n k d) = n_glue_fail n.
  Proof.
    intros HS Hd. destruct (HS k) as [Hcur Hkind]. unfold node_deliver.
    pose proof (step_remote_stored (n_sh n) k d) as Hk1.
    destruct (step (n_sh n) (ERemote k d)) as [s1 od] eqn:Hst. cbn [fst] in Hk1. rewrite Hk1.
    set (m := match sh_keys (n_sh n) !! k with Some l => rv_merge l d | None => d end) in *.
    assert (Hvm : val_ok k m).
    { unfold m. destruct (sh_keys (n_sh n) !! k) as [l|]; [apply val_ok_merge; auto|done]. }
    destruct (materialise_mat (n_x n) k m Hvm) as (x1 & -> & M1 & M3).
    { rewrite Hcur. by apply mat_kind. }
    { intros h f Hh. rewrite Hcur. unfold m in Hh. destruct (sh_keys (n_sh n) !! k) as [l|].
      - rewrite xhash_mat. intros Hf%live_fields_dom. apply (merge_keeps_fields k l d); auto.
      - simpl. rewrite lookup_empty. by intros []. }
    split; [|simpl; by rewrite orb_false_r].
    apply (SInv_update n _ _ _ _ k HS); [done| |by rewrite M1, Hk1|].
    - intros k' Hne. by apply (step_other _ _ _ _ k' Hst).
    - rewrite Hk1. by intros m' [= <-].
  Qed.
End serve.

Section cluster_serve.
  Context (K : list N → N).

  Fixpoint valid_run (c : list node) (log : list (nat * list N * rvalue)) (evs : list cev) : Prop :=
    match evs with
    | [] => True
    | e :: r =>
        match e with
        | CClient _ cmd => cmd_ok K cmd
        | CDeliver _ k d => ∃ o, In (o, k, d) log
        end ∧ valid_run (cstep c log e).1 (cstep c log e).2 r
    end.

  (* the clause on the log is what a later delivery needs *)
  Definition CInv (c : list node) (log : logt) : Prop :=
    (∀ i n, c !! i = Some n → SInv K n ∧ n_glue_fail n = false) ∧
    (∀ o k d, In (o, k, d) log → val_ok K k d).

  (* what [valid_run] asks of one event *)
  Definition cev_ok (log : logt) (e : cev) : Prop :=
    match e with CClient _ cmd => cmd_ok K cmd | CDeliver _ k d => ∃ o, In (o, k, d) log end.

  Lemma cstep_cinv c log e : CInv c log → cev_ok log e → CInv (cstep c log e).1 (cstep c log e).2.
  Proof.
    intros [Hn Hl] He. destruct (cstep c log e) as [c1 l1] eqn:Hs. revert He.
    destruct (cstep_cases _ _ _ _ _ Hs) as [|j n cmd n1 r od Hj Hx|j n k d Hj]; intros He; [done| |].
    - destruct (Hn j n Hj) as [HS Hg].
      destruct (node_exec_serve K n cmd n1 r od HS He Hx) as (HS1 & Hg1 & Hod). split.
      + apply insert_nodes; [intros i n' Hi _; by apply (Hn i)|]. split; [done|congruence].
      + destruct od as [[k d]|]; [|exact Hl].
        intros o k' d' [Hin|[[= <- <- <-]|[]]]%in_app_or; [by apply (Hl o)|by apply Hod].
    - destruct (Hn j n Hj) as [HS Hg]. destruct He as [o Ho].
      destruct (node_deliver_serve K n k d HS (Hl o k d Ho)) as [HS1 Hg1].
      split; [|exact Hl]. apply insert_nodes; [intros i n' Hi _; by apply (Hn i)|]. split; [done|congruence].
  Qed.

  Lemma crun_cinv evs : ∀ c log, CInv c log → valid_run c log evs →
    CInv (crun c log evs).1 (crun c log evs).2.
  Proof.
    induction evs as [|e evs IH]; intros c log HI Hv; simpl; [done|].
    destruct Hv as [He Hv]. pose proof (cstep_cinv c log e HI He) as H1.
    destruct (cstep c log e) as [c1 l1]. simpl in *. by apply IH.
  Qed.

  Lemma CInv_init n : CInv (cluster_init n) [].
  Proof.
    split; [|intros ? ? ? []].
    intros i n0 ->%cluster_init_lookup. split; [apply SInv_init|done].
  Qed.

  Lemma CInv_serve c log i ni :
    CInv c log → c !! i = Some ni → (∀ k, serve ni k = state_says ni k) ∧ n_glue_fail ni = false.
  Proof.
    intros [Hn _] Hi. destruct (Hn i ni Hi) as [HS Hg]. split; [|done].
    intros k. apply serve_of_mat, HS.
  Qed.

  Theorem serve_eq_state_lemma n evs :
    valid_run (cluster_init n) [] evs →
    let c := (crun (cluster_init n) [] evs).1 in
    ∀ i ni, c !! i = Some ni →
      (∀ k, serve ni k = state_says ni k) ∧ n_glue_fail ni = false.
  Proof. intros Hv c i ni. apply (CInv_serve _ _ i ni (crun_cinv evs _ _ (CInv_init n) Hv)). Qed.
End cluster_serve.

(* non-vacuity: a valid run with string and hash keys *)
Definition ex_K (k : list N) : N := if bool_decide (k = [104]) then 5 else 0.
Definition ex_serve_evs : list cev :=
  [CClient 0 (CSet [115] [97] false false); CClient 1 (CHSet [104] [([102], [118])]);
   CClient 0 (CAppend [115] [98]); CClient 1 (CHDel [104] [[102]]); CClient 2 (CDel [115])].
Lemma ex_serve_valid : valid_run ex_K (cluster_init 3) [] ex_serve_evs.
Proof. vm_compute. repeat split; done. Qed.
