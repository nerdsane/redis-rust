(* Crashes and restarts (Model/Cluster.v rstep / rrun): a node that crashes comes back with an
   empty executor, an empty replication state and a clock at zero, and replays the deltas it
   emitted itself.  The closed-system results of UniqueStamps.v, ServeProofs.v and ClosedSec.v
   are re-established for runs with restarts.  Because a restart makes a node's history and
   clock go back, "the final state did not overflow" does not speak for the intermediate
   states; the hypotheses here are about every step of the run. *)
From stdpp Require Import gmap.
From Coq Require Import NArith Lia.
From RV Require Import Lib.Hex Model.Crdt Proofs.CrdtProofs Model.ShardState
  Proofs.ShardStateProofs Model.Cluster Proofs.ClusterProofs Proofs.ServeProofs
  Proofs.UniqueStamps Proofs.ClosedSec.
Local Open Scope N_scope.

Definition deliver_all (n : node) (l : list (list N * rvalue)) : node :=
  fold_left (λ a p, node_deliver a p.1 p.2) l n.

Definition own_entries (i : nat) (log : logt) : list (list N * rvalue) :=
  omap (λ x : nat * list N * rvalue, if bool_decide (x.1.1 = i) then Some (x.1.2, x.2) else None) log.

Lemma own_deliveries_entries i log :
  own_deliveries i log = map (λ p, CDeliver i p.1 p.2) (own_entries i log).
Proof.
  unfold own_deliveries, own_entries, omap. induction log as [|[[o k] d] log IH]; [done|].
  simpl. destruct (bool_decide (o = i)); simpl; by rewrite IH.
Qed.

Lemma own_entries_in i log k d : In (k, d) (own_entries i log) ↔ In (i, k, d) log.
Proof.
  unfold own_entries, omap. induction log as [|[[o k'] d'] log IH]; [done|].
  simpl. destruct (bool_decide (o = i)) eqn:E.
  - apply bool_decide_eq_true in E as ->. simpl. rewrite IH. split.
    + intros [[= <- <-]|H]; auto.
    + intros [[= <- <-]|H]; auto.
  - apply bool_decide_eq_false in E. rewrite IH. split; [auto|].
    intros [[= -> _ _]|H]; [done|auto].
Qed.

Lemma crun_deliveries_at l : ∀ c (log : logt) i n0,
  c !! i = Some n0 →
  crun c log (map (λ p, CDeliver i p.1 p.2) l) = (<[ i := deliver_all n0 l ]> c, log).
Proof.
  induction l as [|[k d] l IH]; intros c log i n0 Hi; simpl.
  - by rewrite list_insert_id.
  - rewrite Hi. rewrite (IH _ log i (node_deliver n0 k d)).
    + by rewrite list_insert_insert.
    + apply list_lookup_insert. by eapply lookup_lt_Some.
Qed.

Definition restarted (i : nat) (log : logt) : node :=
  deliver_all (node_init (N.of_nat (S i))) (own_entries i log).

Lemma rstep_restart c log i n0 :
  c !! i = Some n0 → rstep c log (RRestart i) = (<[ i := restarted i log ]> c, log).
Proof.
  intros Hi. cbn [rstep]. rewrite Hi. rewrite own_deliveries_entries.
  rewrite (crun_deliveries_at _ _ log i (node_init (N.of_nat (S i)))).
  - by rewrite list_insert_insert.
  - apply list_lookup_insert. by eapply lookup_lt_Some.
Qed.

Definition cmd2_ok (K : list N → N) (c : ccmd2) : Prop :=
  match c with
  | CIncrBy k _ | CGetSet k _ => K k = 0
  | CHIncrBy k _ _ => K k = 5
  end.

Lemma desugar_ok K x c2 cmd : cmd2_ok K c2 → desugar x c2 = Some cmd → cmd_ok K cmd.
Proof.
  destruct c2 as [k d|k v|k f d]; simpl; intros HK Hd.
  - destruct (x !! k) as [[s|h]|]; [|done|by injection Hd as <-].
    destruct (MiniExec.parse_redis_integer s); [|done]. destruct (in_i64 _); [|done]. by injection Hd as <-.
  - destruct (x !! k) as [[s|h]|]; [by injection Hd as <-|done|by injection Hd as <-].
  - assert (H : ∀ z0 : option Z, match z0 with
                 | Some z => if in_i64 (z + d) then Some (CHSet k [(f, Resp.show_Z (z + d))]) else None
                 | None => None end = Some cmd → cmd_ok K cmd).
    { intros [z|]; [|done]. destruct (in_i64 _); [|done]. intros [= <-]. simpl. done. }
    destruct (x !! k) as [[s|h]|]; [done| |]; by apply H in Hd.
Qed.

Definition rev_ok (K : list N → N) (log : logt) (e : rcev) : Prop :=
  match e with
  | RStep (CClient _ cmd) => cmd_ok K cmd
  | RStep (CDeliver _ k d) => ∃ o, In (o, k, d) log
  | RRestart _ => True
  | RClient2 _ c2 => cmd2_ok K c2
  end.

(* a step of a run with restarts does nothing, or is a step of the plain cluster (a counter-like
   command being the SET / HSET it desugars to, or nothing when it answered an error), or
   restarts a node *)
Lemma rstep_cases c log e :
  rstep c log e = (c, log) ∨
  (∃ e', rstep c log e = cstep c log e' ∧
     ∀ K, rev_ok K log e → cev_ok K log e') ∨
  (∃ i n0, c !! i = Some n0 ∧ rstep c log e = (<[ i := restarted i log ]> c, log)).
Proof.
  destruct e as [e'|i|i c2].
  - right; left. exists e'. split; [done|]. intros K. by destruct e'.
  - destruct (c !! i) as [n0|] eqn:Hi; [|left; cbn [rstep]; by rewrite Hi].
    right; right. exists i, n0. split; [done|]. by apply (rstep_restart c log i n0).
  - cbn [rstep]. destruct (c !! i) as [n|]; [|by left].
    destruct (desugar (n_x n) c2) as [cmd|] eqn:Hd; [|by left].
    right; left. exists (CClient i cmd). split; [done|]. intros K HK. by eapply desugar_ok.
Qed.

Lemma deliver_all_le l : ∀ n, node_le n (deliver_all n l).
Proof.
  induction l as [|[k d] l IH]; intros n; simpl; [apply node_le_refl|].
  eapply node_le_trans; [apply node_deliver_le|apply IH].
Qed.

Lemma rstep_log_mono c log e : ∃ ext, (rstep c log e).2 = log ++ ext.
Proof.
  destruct (rstep_cases c log e) as [->|[(e' & -> & _)|(i & n0 & _ & ->)]].
  - exists []. by rewrite app_nil_r.
  - apply cstep_log_mono.
  - exists []. by rewrite app_nil_r.
Qed.

Lemma rrun_log_mono evs : ∀ c log, ∃ ext, (rrun c log evs).2 = log ++ ext.
Proof.
  induction evs as [|e evs IH]; intros c log; simpl; [exists []; by rewrite app_nil_r|].
  destruct (rstep c log e) as [c1 l1] eqn:Hs.
  destruct (rstep_log_mono c log e) as [x1 E1]. rewrite Hs in E1. simpl in E1. subst l1.
  destruct (IH c1 (log ++ x1)) as [x2 E2]. exists (x1 ++ x2). by rewrite E2, app_assoc.
Qed.

Lemma reg_in_times_le r d t : reg_in r d → times_le d t → st_time (lw_ts r) ≤ t.
Proof.
  unfold reg_in, times_le, crdt_times_le. intros Hr [_ Hc].
  destruct (rv_crdt d); try done.
  - by subst.
  - destruct Hr as [f Hf]. by apply (Hc f r Hf).
Qed.

Lemma deliver_all_ok log i l : ∀ n,
  (∀ o k d, In (o, k, d) log → wf_value d ∧ plain d) →
  node_ok log i n → (∀ k d, In (k, d) l → ∃ o, In (o, k, d) log) →
  sh_ovf (n_sh (deliver_all n l)) = false →
  node_ok log i (deliver_all n l) ∧
  sh_time (n_sh n) ≤ sh_time (n_sh (deliver_all n l)) ∧
  ∀ k d, In (k, d) l → times_le d (sh_time (n_sh (deliver_all n l))).
Proof.
  induction l as [|[k d] l IH]; intros n G3 Hg Hl Hno; simpl in *.
  - split; [done|]. split; [lia|]. intros ? ? [].
  - destruct (Hl k d (or_introl eq_refl)) as [o Ho].
    pose proof (sticky_false _ _ (proj2 (deliver_all_le l (node_deliver n k d))) Hno) as Hno1.
    destruct (node_deliver_ok log i n k d o G3 Hg Ho Hno1) as (Hg1 & Hm1 & Ht1).
    destruct (IH (node_deliver n k d) G3 Hg1) as (Hg2 & Hm2 & Ht2); [by auto|done|].
    split; [done|]. split; [lia|].
    intros k' d' [[= <- <-]|Hin]; [|by apply (Ht2 k' d')].
    eapply times_le_mono; [exact Hm2|exact Ht1].
Qed.

(* a restarted node is good: by Cover, the replay of its own deltas takes its clock past every
   stamp that carries its id *)
Lemma restarted_good log i :
  (∀ o k d, In (o, k, d) log → wf_value d ∧ plain d) → Cover log →
  sh_ovf (n_sh (restarted i log)) = false →
  node_good log i (restarted i log).
Proof.
  intros G3 Hcov Hno. unfold restarted in *.
  destruct (deliver_all_ok log i (own_entries i log) (node_init (N.of_nat (S i))) G3 (node_init_ok log i))
    as (Hg & _ & Ht); [|done|].
  { intros k d Hin. exists i. by apply own_entries_in. }
  split; [done|].
  intros r Hr Hrid. destruct (Hcov r Hr) as (o & k & d & Hin & Ho & Hrd).
  assert (o = i) as -> by (rewrite Hrid, (ok_rid Hg) in Ho; lia).
  apply (reg_in_times_le r d); [done|]. apply (Ht k d). by apply own_entries_in.
Qed.

Lemma deliver_all_serve K l : ∀ n,
  (∀ k d, In (k, d) l → val_ok K k d) → SInv K n → n_glue_fail n = false →
  SInv K (deliver_all n l) ∧ n_glue_fail (deliver_all n l) = false.
Proof.
  induction l as [|[k d] l IH]; intros n Hv HS Hg; simpl; [done|].
  destruct (node_deliver_serve K n k d HS (Hv k d (or_introl eq_refl))) as [HS1 Hg1].
  apply IH; [intros k' d' Hin'; apply Hv; by right|done|congruence].
Qed.

Lemma restarted_serve K log i :
  (∀ o k d, In (o, k, d) log → val_ok K k d) →
  SInv K (restarted i log) ∧ n_glue_fail (restarted i log) = false.
Proof.
  intros Hl. apply deliver_all_serve; [|apply SInv_init|done].
  intros k d Hin. apply (Hl i). by apply own_entries_in.
Qed.

(* serve = state survives every step, overflow or not *)
Lemma rstep_cinv K c log e :
  CInv K c log → rev_ok K log e → CInv K (rstep c log e).1 (rstep c log e).2.
Proof.
  intros HC He. destruct (rstep_cases c log e) as [->|[(e' & -> & He')|(i & n0 & Hi & ->)]]; [done| |].
  - apply cstep_cinv; [done|]. by apply He'.
  - destruct HC as [Hn Hl]. split; [|done].
    apply insert_nodes; [intros i' n' Hi' _; by apply (Hn i')|]. by apply restarted_serve.
Qed.

Lemma rstep_ginv K c log e :
  GInv c log → rev_ok K log e → no_ovf (rstep c log e).1 → GInv (rstep c log e).1 (rstep c log e).2.
Proof.
  intros HG He Hno.
  destruct (rstep_cases c log e) as [E|[(e' & E & He')|(i & n0 & Hi & E)]]; rewrite E in *; [done| |].
  - destruct (cstep c log e') as [c1 l1] eqn:Hs. apply (cstep_ginv c log e' c1 l1 HG); [|done|done].
    specialize (He' K He). by destruct e'.
  - split; try apply HG.
    apply insert_nodes; [intros i' n' Hi' _; by apply (g_nodes HG)|].
    apply restarted_good; [apply (g_log HG)|apply (g_cover HG)|].
    apply (Hno i), list_lookup_insert. by eapply lookup_lt_Some.
Qed.

Fixpoint valid_rrun (K : list N → N) (c : list node) (log : logt) (evs : list rcev) : Prop :=
  match evs with
  | [] => True
  | e :: r => rev_ok K log e ∧ valid_rrun K (rstep c log e).1 (rstep c log e).2 r
  end.

Fixpoint rrun_no_ovf (c : list node) (log : logt) (evs : list rcev) : Prop :=
  match evs with
  | [] => True
  | e :: r => no_ovf (rstep c log e).1 ∧ rrun_no_ovf (rstep c log e).1 (rstep c log e).2 r
  end.

Lemma rrun_cinv K evs : ∀ c log,
  CInv K c log → valid_rrun K c log evs → CInv K (rrun c log evs).1 (rrun c log evs).2.
Proof.
  induction evs as [|e evs IH]; intros c log HI Hv; simpl in *; [done|].
  destruct Hv as [He Hv]. pose proof (rstep_cinv K c log e HI He) as H1.
  destruct (rstep c log e) as [c1 l1]. by apply IH.
Qed.

Lemma rrun_ginv K evs : ∀ c log,
  GInv c log → valid_rrun K c log evs → rrun_no_ovf c log evs →
  GInv (rrun c log evs).1 (rrun c log evs).2.
Proof.
  induction evs as [|e evs IH]; intros c log HI Hv Hno; simpl in *; [done|].
  destruct Hv as [He Hv]. destruct Hno as [Hn1 Hno].
  pose proof (rstep_ginv K c log e HI He Hn1) as H1.
  destruct (rstep c log e) as [c1 l1]. by apply IH.
Qed.

Lemma deliver_all_nodeinv U K l : ∀ n,
  NodeInv n → hist_good U K (deliver_all n l) → sh_ovf (n_sh (deliver_all n l)) = false →
  NodeInv (deliver_all n l).
Proof.
  induction l as [|[k d] l IH]; intros n Hn Hg Ho; simpl in *; [done|].
  destruct (node_le_good U K _ _ (deliver_all_le l (node_deliver n k d)) Hg Ho) as [Hg1 Ho1].
  apply IH; [|done|done]. by apply (node_deliver_inv U K).
Qed.

Section restart_nodes.
  Context (U : stamp → option lww) (K : list N → N).
  Hypothesis HK : ∀ k, K k = 0 ∨ K k = 5.

  Lemma rstep_nodeinv c log e :
    (∀ i n, c !! i = Some n → NodeInv n) →
    GInv (rstep c log e).1 (rstep c log e).2 →
    (∀ o k d, In (o, k, d) (rstep c log e).2 → good U K k d) →
    no_ovf (rstep c log e).1 →
    ∀ i n, (rstep c log e).1 !! i = Some n → NodeInv n.
  Proof.
    intros H0 HG Hgood Hno i n1 Hi1.
    pose proof (hist_good_of_log U K _ i n1 (g_nodes HG i n1 Hi1) Hgood) as Hg1.
    pose proof (Hno i n1 Hi1) as Ho1.
    destruct (rstep_cases c log e) as [E|[(e' & E & _)|(j & n0 & Hj & E)]]; rewrite E in *.
    - by apply (H0 i).
    - destruct (cstep c log e') as [c1 l1] eqn:Hs.
      destruct (Forall2_lookup_r _ _ _ _ _ (cstep_nodes _ _ _ _ _ Hs) Hi1) as (n0 & Hi0 & Hn).
      eapply (node_step_inv U K HK); eauto.
    - apply list_lookup_insert_Some in Hi1 as [(-> & <- & _)|[_ Hi1]]; [|by apply (H0 i)].
      apply (deliver_all_nodeinv U K); [apply NodeInv_init|done|done].
  Qed.

  Lemma rrun_nodeinv evs : ∀ c log,
    GInv c log → (∀ i n, c !! i = Some n → NodeInv n) →
    valid_rrun K c log evs → rrun_no_ovf c log evs →
    (∀ o k d, In (o, k, d) (rrun c log evs).2 → good U K k d) →
    ∀ i n, (rrun c log evs).1 !! i = Some n → NodeInv n.
  Proof.
    induction evs as [|e evs IH]; intros c log HI H0 Hv Hno Hgood; simpl in *; [done|].
    destruct Hv as [He Hv]. destruct Hno as [Hn1 Hno].
    pose proof (rstep_ginv K c log e HI He Hn1) as HI1.
    pose proof (rstep_nodeinv c log e H0 HI1) as Hstep.
    destruct (rstep c log e) as [c1 l1] eqn:Hs. cbn [fst snd] in *.
    apply (IH c1 l1); try done.
    apply Hstep; [|done].
    intros o k d Hin. apply (Hgood o).
    destruct (rrun_log_mono evs c1 l1) as [ext ->]. apply in_or_app. by left.
  Qed.
End restart_nodes.

Theorem sec_closed_restart_lemma (K : list N → N) :
  (∀ k, K k = 0 ∨ K k = 5) →
  ∀ n evs i j ni nj k,
  valid_rrun K (cluster_init n) [] evs → rrun_no_ovf (cluster_init n) [] evs →
  let c := (rrun (cluster_init n) [] evs).1 in
  c !! i = Some ni → c !! j = Some nj →
  same_set (hist_of ni k) (hist_of nj k) →
  sh_keys (n_sh ni) !! k = sh_keys (n_sh nj) !! k.
Proof.
  intros HK n evs i j ni nj k Hv Hno c Hi Hj Hs.
  pose proof (rrun_ginv K evs _ _ (GInv_init n) Hv Hno) as HG.
  pose proof (rrun_cinv K evs _ _ (CInv_init K n) Hv) as [_ Hlogk].
  set (lf := (rrun (cluster_init n) [] evs).2) in *.
  pose proof (log_good K _ lf HG Hlogk) as Hgood.
  pose proof (rrun_nodeinv (U_of lf) K HK evs _ _ (GInv_init n) (cluster_init_inv n) Hv Hno Hgood) as Hinv.
  destruct (Hinv i ni Hi) as (_ & _ & _ & Si). destruct (Hinv j nj Hj) as (_ & _ & _ & Sj).
  rewrite Si, Sj.
  apply (fold_merge_same_set (U_of lf) (K k) (HK k)); [| |exact Hs].
  - apply good_forall_class. apply (hist_good_of_log (U_of lf) K lf i ni (g_nodes HG i ni Hi) Hgood).
  - apply good_forall_class. apply (hist_good_of_log (U_of lf) K lf j nj (g_nodes HG j nj Hj) Hgood).
Qed.

Theorem unique_stamps_restart_lemma (K : list N → N) n evs :
  valid_rrun K (cluster_init n) [] evs → rrun_no_ovf (cluster_init n) [] evs →
  let log := (rrun (cluster_init n) [] evs).2 in
  ∀ r r', log_reg log r → log_reg log r' → lw_ts r = lw_ts r' → r = r'.
Proof.
  intros Hv Hno. exact (g_unique (rrun_ginv K evs _ _ (GInv_init n) Hv Hno)).
Qed.

Theorem restart_clock_lemma (K : list N → N) n evs i ni :
  valid_rrun K (cluster_init n) [] evs → rrun_no_ovf (cluster_init n) [] evs →
  (rrun (cluster_init n) [] evs).1 !! i = Some ni →
  ∀ r, log_reg (rrun (cluster_init n) [] evs).2 r → st_rid (lw_ts r) = N.of_nat (S i) →
  st_time (lw_ts r) ≤ sh_time (n_sh ni).
Proof.
  intros Hv Hno Hi r Hr Hrid.
  destruct (g_nodes (rrun_ginv K evs _ _ (GInv_init n) Hv Hno) i ni Hi) as [Hok Hclock].
  apply Hclock; [done|]. by rewrite (ok_rid Hok).
Qed.

(* needs no hypothesis on overflow *)
Theorem serve_eq_state_restart_lemma (K : list N → N) n evs :
  valid_rrun K (cluster_init n) [] evs →
  let c := (rrun (cluster_init n) [] evs).1 in
  ∀ i ni, c !! i = Some ni → (∀ k, serve ni k = state_says ni k) ∧ n_glue_fail ni = false.
Proof.
  intros Hv c i ni. apply (CInv_serve K _ _ i ni (rrun_cinv K evs _ _ (CInv_init K n) Hv)).
Qed.

(* boolean form of the no-overflow hypothesis, for the concrete runs below *)
Definition no_ovf_b (c : list node) : bool := forallb (λ n, negb (sh_ovf (n_sh n))) c.
Lemma no_ovf_b_spec c : no_ovf_b c = true → no_ovf c.
Proof.
  unfold no_ovf_b, no_ovf. intros H i n Hi. rewrite forallb_forall in H.
  specialize (H n). apply negb_true_iff. apply H. apply elem_of_list_In. by eapply elem_of_list_lookup_2.
Qed.
Fixpoint rrun_no_ovf_b (c : list node) (log : logt) (evs : list rcev) : bool :=
  match evs with
  | [] => true
  | e :: r => no_ovf_b (rstep c log e).1 && rrun_no_ovf_b (rstep c log e).1 (rstep c log e).2 r
  end.
Lemma rrun_no_ovf_b_spec evs : ∀ c log, rrun_no_ovf_b c log evs = true → rrun_no_ovf c log evs.
Proof.
  induction evs as [|e evs IH]; intros c log H; simpl in *; [done|].
  apply andb_true_iff in H as [H1 H2]. split; [by apply no_ovf_b_spec|by apply IH].
Qed.

Definition ex_restart_evs : list rcev :=
  [RStep (CClient 0 (CSet [115] [97] false false)); RStep (CClient 0 (CSet [115] [98] false false));
   RStep (CClient 1 (CHSet [104] [([102], [118]); ([103], [119])]));
   RRestart 0; RStep (CClient 0 (CSet [115] [99] false false));
   RRestart 1; RStep (CClient 1 (CHSet [104] [([102], [120])]))].
Lemma ex_restart_valid :
  valid_rrun ex_K (cluster_init 3) [] ex_restart_evs ∧ rrun_no_ovf (cluster_init 3) [] ex_restart_evs.
Proof.
  split; [vm_compute; repeat split; done|].
  apply rrun_no_ovf_b_spec. vm_compute. reflexivity.
Qed.
(* the stamps issued by nodes 0 and 1 (replica ids 1 and 2; keys s and h), in emission order: they keep growing
   across the restarts *)
Lemma ex_restart_stamps :
  map (λ x : nat * list N * rvalue, (x.1.1, st_time (rv_ts x.2))) (rrun (cluster_init 3) [] ex_restart_evs).2
  = [(0%nat, 1); (0%nat, 2); (1%nat, 2); (0%nat, 4); (1%nat, 4)].
Proof. vm_compute. reflexivity. Qed.

Definition ex_counter_evs : list rcev := ex_restart_evs ++
  [RClient2 0 (CIncrBy [99] 5); RClient2 0 (CIncrBy [99] (-7)); RClient2 0 (CGetSet [115] [49; 48]);
   RClient2 0 (CIncrBy [115] 1); RClient2 1 (CHIncrBy [104] [102] 1); RClient2 1 (CHIncrBy [104] [110] 7);
   RClient2 1 (CHIncrBy [104] [110] 9223372036854775807)].
Lemma ex_counter_valid :
  valid_rrun ex_K (cluster_init 3) [] ex_counter_evs ∧ rrun_no_ovf (cluster_init 3) [] ex_counter_evs.
Proof.
  split; [vm_compute; repeat split; done|].
  apply rrun_no_ovf_b_spec. vm_compute. reflexivity.
Qed.
Lemma ex_counter_log :
  map (λ x : nat * list N * rvalue, (x.1.1, x.1.2, st_time (rv_ts x.2))) (rrun (cluster_init 3) [] ex_counter_evs).2
  = [(0%nat, [115], 1); (0%nat, [115], 2); (1%nat, [104], 2); (0%nat, [115], 4); (1%nat, [104], 4);
     (0%nat, [99], 5); (0%nat, [99], 6); (0%nat, [115], 7); (0%nat, [115], 8); (1%nat, [104], 5)]
  ∧ map (λ n, (n_x n !! [99], n_x n !! [115])) (rrun (cluster_init 3) [] ex_counter_evs).1
  = [(Some (XStr [45; 50]), Some (XStr [49; 49])); (None, None); (None, None)].
Proof. vm_compute. split; reflexivity. Qed.
