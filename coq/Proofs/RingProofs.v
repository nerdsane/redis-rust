(* Lemmas for C19 (Model/Ring.v).  The ring and routing theorems are proved for an arbitrary
   position function of virtual nodes and keys, and for any ring that satisfies [ring_inv],
   which every ring the API builds does ([reachable_inv]). *)
From Coq Require Import NArith List Bool Arith Lia Sorting.Sorted Sorting.Permutation Logic.FinFun.
From RV Require Import Lib.Hex Lib.SipHash Lib.SipFast Lib.ListFacts Model.Ring.
Import ListNotations.
Local Open Scope N_scope.

Lemma mem_In : forall x l, mem x l = true <-> In x l.
Proof.
  intros x l. unfold mem. rewrite existsb_exists. split.
  - intros [y [H1 H2]]. apply N.eqb_eq in H2. subst. exact H1.
  - intro H. exists x. split; [exact H | apply N.eqb_refl].
Qed.

Lemma mem_nIn : forall x l, mem x l = false <-> ~ In x l.
Proof. intros x l. rewrite <- mem_In. symmetry. apply not_true_iff_false. Qed.

Lemma mem_cons : forall q a l, mem q (a :: l) = (q =? a) || mem q l.
Proof. reflexivity. Qed.

Lemma mem_snoc : forall y acc x, mem y (acc ++ [x]) = mem y (x :: acc).
Proof.
  intros. unfold mem. rewrite existsb_app. cbn [existsb]. rewrite orb_false_r. apply orb_comm.
Qed.

Lemma mem_filter : forall q p l, mem q (filter p l) = mem q l && p q.
Proof.
  intros q p l. apply eq_iff_eq_true. rewrite andb_true_iff, !mem_In, filter_In. tauto.
Qed.

Lemma filter_neq_absent : forall (x : N) l, ~ In x l -> filter (fun y => negb (y =? x)) l = l.
Proof.
  intros x l H. apply filter_all. intros y Hy. apply negb_true_iff, N.eqb_neq. intros ->. exact (H Hy).
Qed.

Lemma firstn_filter_absent : forall (x : N) l k, ~ In x (firstn k l) ->
  firstn k (filter (fun y => negb (y =? x)) l) = firstn k l.
Proof.
  intros x. induction l as [|d l IH]; intros k H; [reflexivity|].
  destruct k as [|k]; [reflexivity|]. cbn [firstn] in H. cbn [filter].
  destruct (N.eqb_spec d x) as [E|_]; [contradiction H; left; exact E|].
  cbn [negb firstn]. f_equal. apply IH. intro Hin. apply H. right. exact Hin.
Qed.

Lemma rot_nil : forall A (s : nat), @rot A s [] = [].
Proof. intros. unfold rot. rewrite skipn_nil, firstn_nil. reflexivity. Qed.

Lemma rot_In : forall A (s : nat) (l : list A) x, In x (rot s l) <-> In x l.
Proof.
  intros. unfold rot. rewrite in_app_iff, or_comm, <- in_app_iff, firstn_skipn. reflexivity.
Qed.

Lemma nseq_In : forall n i, In i (nseq n) <-> i < n.
Proof.
  intros n i. unfold nseq. rewrite in_map_iff. split.
  - intros [k [E H]]. apply in_seq in H. lia.
  - intro H. exists (N.to_nat i). split; [apply N2Nat.id|]. apply in_seq. lia.
Qed.

Lemma nseq_NoDup : forall n, NoDup (nseq n).
Proof.
  intro n. apply Injective_map_NoDup; [exact Nat2N.inj | apply seq_NoDup].
Qed.

(* first occurrences, as the [seen] set of the walk keeps them ([List.nodup] keeps the last) *)
Fixpoint nub (l : list N) : list N :=
  match l with
  | [] => []
  | x :: l' => x :: filter (fun y => negb (y =? x)) (nub l')
  end.

Lemma nub_In : forall l x, In x (nub l) <-> In x l.
Proof.
  induction l as [|a l IH]; intro x; cbn [nub]; [reflexivity|].
  cbn [In]. rewrite filter_In, IH. split.
  - intros [H|[H _]]; auto.
  - intros [H|H]; auto. destruct (N.eq_dec a x) as [E|E]; auto.
    right. split; auto. apply negb_true_iff. apply N.eqb_neq. auto.
Qed.

Lemma nub_NoDup : forall l, NoDup (nub l).
Proof.
  induction l as [|a l IH]; cbn [nub]; constructor.
  - rewrite filter_In. intros [_ H]. rewrite N.eqb_refl in H. discriminate.
  - apply NoDup_filter. exact IH.
Qed.

Lemma nub_filter : forall (p : N -> bool) l, nub (filter p l) = filter p (nub l).
Proof.
  intros p. induction l as [|a l IH]; cbn [nub filter]; [reflexivity|].
  destruct (p a) eqn:E; cbn [nub filter]; rewrite ?E.
  - rewrite IH. f_equal. apply filter_comm.
  - rewrite IH. rewrite filter_filter_and. apply filter_ext.
    intros x. destruct (x =? a) eqn:F; cbn [negb andb]; [|reflexivity].
    apply N.eqb_eq in F. subst. rewrite E. reflexivity.
Qed.

Lemma nub_id : forall l, NoDup l -> nub l = l.
Proof.
  induction 1 as [|a l Hn Hd IH]; cbn [nub]; [reflexivity|].
  rewrite IH, filter_neq_absent by exact Hn. reflexivity.
Qed.

Definition ple (a b : N * (N * N)) : Prop := e_pos a <= e_pos b.

Lemma insert_perm : forall e l, Permutation (insert e l) (e :: l).
Proof.
  intros e. induction l as [|a l IH]; cbn [insert]; [reflexivity|].
  destruct (e_pos e <=? e_pos a); [reflexivity|].
  transitivity (a :: e :: l); [constructor; exact IH | apply perm_swap].
Qed.

Lemma ple_head : forall e a l, ple e a -> Forall (ple a) l -> Forall (ple e) (a :: l).
Proof.
  intros e a l E Hf. constructor; [exact E|]. eapply Forall_impl; [|exact Hf].
  intros b Hb. exact (N.le_trans _ _ _ E Hb).
Qed.

Lemma insert_sorted : forall e l, StronglySorted ple l -> StronglySorted ple (insert e l).
Proof.
  intros e l H. induction H as [|a l Hs IH Hf]; cbn [insert].
  - constructor; constructor.
  - destruct (e_pos e <=? e_pos a) eqn:E.
    + apply N.leb_le in E. constructor; [constructor; assumption | apply ple_head; assumption].
    + apply N.leb_gt in E. constructor; [exact IH|].
      rewrite (insert_perm e l). constructor; [|exact Hf]. unfold ple. lia.
Qed.

Lemma sort_perm : forall l, Permutation (sort_by_pos l) l.
Proof.
  induction l as [|a l IH]; cbn [sort_by_pos fold_right]; [reflexivity|].
  etransitivity; [apply insert_perm|]. constructor. exact IH.
Qed.

Lemma sort_sorted : forall l, StronglySorted ple (sort_by_pos l).
Proof.
  induction l as [|a l IH]; cbn [sort_by_pos fold_right]; [constructor|].
  apply insert_sorted. exact IH.
Qed.

Lemma insert_head : forall e l, Forall (ple e) l -> insert e l = e :: l.
Proof.
  intros e [|a l] H; cbn [insert]; [reflexivity|].
  apply Forall_inv in H. unfold ple in H. apply N.leb_le in H. rewrite H. reflexivity.
Qed.

Lemma sort_id : forall l, StronglySorted ple l -> sort_by_pos l = l.
Proof.
  intros l H. induction H as [|a l Hs IH Hf]; cbn [sort_by_pos fold_right]; [reflexivity|].
  fold (sort_by_pos l). rewrite IH. apply insert_head. exact Hf.
Qed.

Lemma sorted_filter : forall p l, StronglySorted ple l -> StronglySorted ple (filter p l).
Proof.
  intros p l H. induction H as [|a l Hs IH Hf]; cbn [filter]; [constructor|].
  destruct (p a); [|exact IH]. constructor; [exact IH|].
  apply incl_Forall with (2 := Hf). apply incl_filter.
Qed.

Lemma filter_insert : forall p e l, StronglySorted ple l ->
  filter p (insert e l) = if p e then insert e (filter p l) else filter p l.
Proof.
  intros p e l H. induction H as [|a l Hs IH Hf]; cbn [insert].
  - cbn [filter]. destruct (p e); reflexivity.
  - destruct (e_pos e <=? e_pos a) eqn:E.
    + cbn [filter]. destruct (p e); [|reflexivity].
      symmetry. apply insert_head. apply N.leb_le in E.
      exact (incl_Forall (incl_filter p (a :: l)) (ple_head e a l E Hf)).
    + cbn [filter]. rewrite IH. destruct (p a), (p e); cbn [insert]; rewrite ?E; reflexivity.
Qed.

(* the sort is stable: it commutes with dropping elements *)
Lemma filter_sort : forall p l, filter p (sort_by_pos l) = sort_by_pos (filter p l).
Proof.
  intros p. induction l as [|a l IH]; [reflexivity|].
  cbn [sort_by_pos fold_right filter]. fold (sort_by_pos l).
  rewrite filter_insert by apply sort_sorted. rewrite IH.
  destruct (p a); reflexivity.
Qed.

Lemma sorted_perm_unique : forall l1 l2,
  StronglySorted ple l1 -> StronglySorted ple l2 -> Permutation l1 l2 ->
  NoDup (map e_pos l1) -> l1 = l2.
Proof. exact (sorted_key_perm_unique _ e_pos). Qed.

Lemma deliveries_cons : forall k ds r q,
  deliveries ((k, ds) :: r) q = if k =? q then ds else deliveries r q.
Proof. intros. unfold deliveries. cbn [tbl_get]. destruct (k =? q); reflexivity. Qed.

Lemma deliveries_push : forall t d tbl q,
  deliveries (tbl_push t d tbl) q = if q =? t then deliveries tbl q ++ [d] else deliveries tbl q.
Proof.
  intros t d tbl q. rewrite (N.eqb_sym q t).
  induction tbl as [|[k ds] r IH]; cbn [tbl_push]; [rewrite deliveries_cons; reflexivity|].
  destruct (N.eqb_spec k t) as [->|Hk]; rewrite !deliveries_cons.
  - destruct (t =? q); reflexivity.
  - rewrite IH. destruct (N.eqb_spec k q) as [->|_]; [|reflexivity].
    apply N.eqb_neq in Hk. rewrite N.eqb_sym, Hk. reflexivity.
Qed.

(* The two loops of route_selective, over any test [P] of a target (there: the router knows
   its address) and any target function [T] (there: the gossip targets of the delta's key).
   Inner: [d] is pushed to those of the targets [ts] that pass [P]; outer: so is every delta
   of the batch, to its targets [T d], starting from the table [tbl] (there: empty). *)
Definition push_loop (P : N -> bool) (d : delta) (ts : list N) (tbl : table) : table :=
  fold_left (fun tbl t => if P t then tbl_push t d tbl else tbl) ts tbl.

Definition route_loop (P : N -> bool) (T : delta -> list N) (deltas : list delta) (tbl : table) : table :=
  fold_left (fun tbl d => push_loop P d (T d) tbl) deltas tbl.

Lemma route_selective_loop : forall kpos r os deltas,
  route_selective kpos r os deltas =
  route_loop (has_peer r)
             (fun d => get_gossip_targets kpos (gr_ring r) (d_key d) (gr_me r) (os (kpos (d_key d))))
             deltas [].
Proof. reflexivity. Qed.

Lemma deliveries_targets : forall P d ts tbl q, NoDup ts ->
  deliveries (push_loop P d ts tbl) q =
  deliveries tbl q ++ (if mem q ts && P q then [d] else []).
Proof.
  intros P d. unfold push_loop. induction ts as [|a ts IH]; intros tbl q H; cbn [fold_left].
  - cbn. rewrite app_nil_r. reflexivity.
  - apply NoDup_cons_iff in H. destruct H as [Hn Hd]. rewrite IH by exact Hd. rewrite mem_cons.
    destruct (N.eqb_spec q a) as [E|E].
    + subst. assert (mem a ts = false) as -> by (apply mem_nIn; exact Hn).
      cbn [orb andb]. destruct (P a).
      * rewrite deliveries_push, N.eqb_refl, app_nil_r. reflexivity.
      * reflexivity.
    + cbn [orb]. f_equal. destruct (P a); [|reflexivity].
      rewrite deliveries_push. apply N.eqb_neq in E. rewrite E. reflexivity.
Qed.

Lemma deliveries_route : forall P T deltas tbl q, (forall d, NoDup (T d)) ->
  deliveries (route_loop P T deltas tbl) q =
  deliveries tbl q ++ filter (fun d => mem q (T d) && P q) deltas.
Proof.
  intros P T. unfold route_loop. induction deltas as [|d ds IH]; intros tbl q H; cbn [fold_left filter].
  - rewrite app_nil_r. reflexivity.
  - rewrite IH by exact H. rewrite deliveries_targets by apply H.
    rewrite <- app_assoc. f_equal. destruct (mem q (T d) && P q); reflexivity.
Qed.

Definition tbl_ok (tbl : list (N * list (list N * (N * N)))) : Prop :=
  NoDup (map fst tbl) /\ Forall (fun p => snd p <> []) tbl.

Lemma tbl_push_keys : forall t d tbl x, In x (map fst (tbl_push t d tbl)) -> In x (t :: map fst tbl).
Proof.
  intros t d. induction tbl as [|[k ds] r IH]; intros x H; cbn [tbl_push map fst] in H; [exact H|].
  destruct (N.eqb_spec k t) as [->|_].
  - right. exact H.
  - destruct H as [H|H]; [right; left; exact H|].
    destruct (IH x H) as [E|E]; [left | right; right]; exact E.
Qed.

Lemma tbl_push_ok : forall t d tbl, tbl_ok tbl -> tbl_ok (tbl_push t d tbl).
Proof.
  intros t d. induction tbl as [|[k ds] r IH]; intros [Hn Hf]; cbn [tbl_push].
  - split; cbn; repeat constructor; [intros [] | discriminate].
  - cbn [map fst] in Hn. apply NoDup_cons_iff in Hn. destruct Hn as [Hk Hr].
    apply Forall_cons_iff in Hf. destruct Hf as [Hd Hf'].
    destruct (N.eqb_spec k t).
    + subst. split; cbn [map fst]; [constructor; assumption|]. constructor; [|exact Hf'].
      cbn [snd]. destruct ds; discriminate.
    + destruct (IH (conj Hr Hf')) as [In' If']. split; cbn [map fst].
      * constructor; [|exact In']. intro H. apply tbl_push_keys in H.
        destruct H as [E|E]; [congruence | contradiction].
      * constructor; assumption.
Qed.

Lemma push_loop_ok : forall P d ts tbl, tbl_ok tbl -> tbl_ok (push_loop P d ts tbl).
Proof.
  intros P d. unfold push_loop. induction ts as [|a ts IH]; intros tbl H; [exact H|].
  cbn [fold_left]. apply IH. destruct (P a); [apply tbl_push_ok|]; exact H.
Qed.

Lemma route_loop_ok : forall P T deltas tbl, tbl_ok tbl -> tbl_ok (route_loop P T deltas tbl).
Proof.
  intros P T. unfold route_loop. induction deltas as [|d ds IH]; intros tbl H; [exact H|].
  cbn [fold_left]. apply IH, push_loop_ok, H.
Qed.

Lemma tbl_get_iff : forall tbl t ds, NoDup (map fst tbl) ->
  (tbl_get tbl t = Some ds <-> In (t, ds) tbl).
Proof.
  induction tbl as [|[k ks] r IH]; intros t ds Hn; cbn [tbl_get In].
  - split; [discriminate | contradiction].
  - cbn [map fst] in Hn. apply NoDup_cons_iff in Hn. destruct Hn as [Hk Hr].
    destruct (N.eqb_spec k t) as [->|Hkt].
    + split.
      * intros [= ->]. left. reflexivity.
      * intros [[= ->]|Hin]; [reflexivity|]. destruct Hk. apply (in_map fst _ _ Hin).
    + rewrite IH by exact Hr. split.
      * intro H. right. exact H.
      * intros [[= E _]|H]; [contradiction | exact H].
Qed.

Lemma tbl_entry_iff : forall tbl t ds, tbl_ok tbl ->
  (In (t, ds) tbl <-> ds = deliveries tbl t /\ ds <> []).
Proof.
  intros tbl t ds [Hn Hf]. rewrite <- tbl_get_iff by exact Hn. unfold deliveries. split.
  - intro G. rewrite G. split; [reflexivity|]. apply tbl_get_iff in G; [|exact Hn].
    rewrite Forall_forall in Hf. apply (Hf _ G).
  - intros [-> Hne]. destruct (tbl_get tbl t); [reflexivity | contradiction].
Qed.

Lemma filter_nonempty_all : forall tbl : table,
  Forall (fun p => snd p <> []) tbl -> filter (fun p => negb (is_nil (snd p))) tbl = tbl.
Proof.
  intros tbl Hf. apply filter_all. intros p Hp. rewrite Forall_forall in Hf.
  specialize (Hf p Hp). destruct (snd p); [contradiction | reflexivity].
Qed.

Lemma filter_nonempty_ok : forall tbl, tbl_ok tbl ->
  filter (fun p : N * list (list N * (N * N)) => negb (is_nil (snd p))) tbl = tbl.
Proof. intros tbl [_ Hf]. apply filter_nonempty_all. exact Hf. Qed.

Definition tbl_map (g : delta -> delta) (tbl : table) : table :=
  map (fun p => (fst p, map g (snd p))) tbl.

Lemma tbl_push_map : forall g t d tbl,
  tbl_push t (g d) (tbl_map g tbl) = tbl_map g (tbl_push t d tbl).
Proof.
  intros g t d. induction tbl as [|[k ds] r IH]; [reflexivity|].
  cbn [tbl_map map fst snd tbl_push]. destruct (k =? t).
  - cbn [map fst snd]. rewrite map_app. reflexivity.
  - cbn [map fst snd]. f_equal. exact IH.
Qed.

Lemma push_loop_map : forall g P d ts tbl,
  push_loop P (g d) ts (tbl_map g tbl) = tbl_map g (push_loop P d ts tbl).
Proof.
  intros g P d. unfold push_loop. induction ts as [|a ts IH]; intro tbl; [reflexivity|].
  cbn [fold_left]. destruct (P a); [rewrite tbl_push_map|]; apply IH.
Qed.

Lemma route_loop_map : forall g P T deltas tbl, (forall d, T (g d) = T d) ->
  route_loop P T (map g deltas) (tbl_map g tbl) = tbl_map g (route_loop P T deltas tbl).
Proof.
  intros g P T deltas tbl HT. unfold route_loop. revert tbl.
  induction deltas as [|d ds IH]; intro tbl; [reflexivity|].
  cbn [map fold_left]. rewrite HT, push_loop_map. apply IH.
Qed.

Theorem route_independent_of_origin : forall kpos g r os deltas,
  (forall d, d_key (g d) = d_key d) ->
  route_selective kpos r os (map g deltas) = tbl_map g (route_selective kpos r os deltas).
Proof.
  intros kpos g r os deltas Hg. rewrite !route_selective_loop.
  apply (route_loop_map g _ _ deltas []). intro d. rewrite Hg. reflexivity.
Qed.

Section RingFacts.
  Variable vpos : N -> N -> N.
  Variable kpos : list N -> N.

  Notation vnodes_of := (Ring.vnodes_of vpos).
  Notation all_vnodes := (Ring.all_vnodes vpos).
  Notation add_node := (Ring.add_node vpos).
  Notation apply_op := (Ring.apply_op vpos).
  Notation run := (Ring.run vpos).
  Notation ring_new := (Ring.ring_new vpos).
  Notation positions_distinct := (Ring.positions_distinct vpos).

  (* the invariant of every ring the API can produce; it holds whether or not positions collide *)
  Definition ring_inv (R : ring) : Prop :=
    NoDup (r_nodes R) /\ StronglySorted ple (r_ring R) /\
    Permutation (r_ring R) (all_vnodes (r_vn R) (r_nodes R)).

  Lemma vnodes_node : forall vn x e, In e (vnodes_of vn x) -> e_node e = x.
  Proof.
    intros vn x e H. unfold Ring.vnodes_of in H. apply in_map_iff in H.
    destruct H as [i [H _]]. subst. reflexivity.
  Qed.

  Lemma all_vnodes_filter : forall vn x ns,
    filter (fun e => negb (e_node e =? x)) (all_vnodes vn ns) =
    all_vnodes vn (filter (fun n => negb (n =? x)) ns).
  Proof.
    intros vn x. induction ns as [|a ns IH]; [reflexivity|].
    unfold Ring.all_vnodes in *. cbn [flat_map filter]. rewrite filter_app, IH.
    destruct (a =? x) eqn:E; cbn [negb flat_map].
    - rewrite filter_none; [reflexivity|]. intros e He. apply vnodes_node in He. rewrite He, E. reflexivity.
    - rewrite filter_all; [reflexivity|]. intros e He. apply vnodes_node in He. rewrite He, E. reflexivity.
  Qed.

  Lemma add_node_absent : forall R x, ~ In x (r_nodes R) ->
    add_node R x = Ring (sort_by_pos (r_ring R ++ vnodes_of (r_vn R) x))
                        (r_vn R) (r_rf R) (r_nodes R ++ [x]) (r_version R + 1).
  Proof. intros R x H. unfold Ring.add_node. apply mem_nIn in H. rewrite H. reflexivity. Qed.

  Lemma add_node_present : forall R x, In x (r_nodes R) -> add_node R x = R.
  Proof.
    intros R x H. unfold Ring.add_node. apply mem_In in H. rewrite H. reflexivity.
  Qed.

  Lemma empty_inv : forall vn rf, ring_inv (ring_empty vn rf).
  Proof. intros. repeat split; cbn; constructor. Qed.

  Lemma add_node_inv : forall R x, ring_inv R -> ring_inv (add_node R x).
  Proof.
    intros R x HI. destruct (in_dec N.eq_dec x (r_nodes R)) as [Hx|Hx].
    - rewrite add_node_present by exact Hx. exact HI.
    - destruct HI as (Hn & Hs & Hp). rewrite add_node_absent by exact Hx.
      repeat split; cbn [r_nodes r_ring r_vn].
      + apply NoDup_snoc; assumption.
      + apply sort_sorted.
      + etransitivity; [apply sort_perm|]. unfold Ring.all_vnodes.
        rewrite flat_map_app. cbn [flat_map]. rewrite app_nil_r.
        apply Permutation_app_tail. exact Hp.
  Qed.

  Lemma remove_node_inv : forall R x, ring_inv R -> ring_inv (remove_node R x).
  Proof.
    intros R x (Hn & Hs & Hp). repeat split; cbn [remove_node r_nodes r_ring r_vn].
    - apply NoDup_filter. exact Hn.
    - apply sorted_filter. exact Hs.
    - rewrite <- all_vnodes_filter. apply Permutation_filter. exact Hp.
  Qed.

  Lemma apply_op_inv : forall R o, ring_inv R -> ring_inv (apply_op R o).
  Proof. intros R [x|x] H; [apply add_node_inv | apply remove_node_inv]; exact H. Qed.

  Lemma run_ind : forall P : ring -> Prop, (forall R o, P R -> P (apply_op R o)) ->
    forall ops R, P R -> P (run R ops).
  Proof.
    intros P Hstep. induction ops as [|o ops IH]; intros R H; [exact H|].
    apply (IH (apply_op R o)), Hstep, H.
  Qed.

  Theorem reachable_inv : forall vn rf ops, ring_inv (run (ring_empty vn rf) ops).
  Proof. intros. apply run_ind; [exact apply_op_inv | apply empty_inv]. Qed.

  Lemma apply_op_vn : forall R o, r_vn (apply_op R o) = r_vn R.
  Proof.
    intros R [x|x]; [|reflexivity]. unfold Ring.apply_op, Ring.add_node.
    destruct (mem x (r_nodes R)); reflexivity.
  Qed.

  Lemma apply_op_rf : forall R o, r_rf (apply_op R o) = r_rf R.
  Proof.
    intros R [x|x]; [|reflexivity]. unfold Ring.apply_op, Ring.add_node.
    destruct (mem x (r_nodes R)); reflexivity.
  Qed.

  Lemma run_vn : forall ops R, r_vn (run R ops) = r_vn R.
  Proof.
    intros ops R. apply (run_ind (fun R' => r_vn R' = r_vn R)); [|reflexivity].
    intros R' o H. rewrite apply_op_vn. exact H.
  Qed.

  Lemma run_rf : forall ops R, r_rf (run R ops) = r_rf R.
  Proof.
    intros ops R. apply (run_ind (fun R' => r_rf R' = r_rf R)); [|reflexivity].
    intros R' o H. rewrite apply_op_rf. exact H.
  Qed.

  Lemma reachable_vn : forall vn rf ops, r_vn (run (ring_empty vn rf) ops) = vn.
  Proof. intros. apply run_vn. Qed.

  Lemma ring_new_run : forall ns vn rf, ring_new ns vn rf = run (ring_empty vn rf) (map OpAdd ns).
  Proof.
    intros ns vn rf. unfold Ring.ring_new, Ring.run. generalize (ring_empty vn rf).
    induction ns as [|a ns IH]; intro R; [reflexivity|]. cbn. apply IH.
  Qed.

  Lemma fold_add_nodes : forall ns R, NoDup (r_nodes R ++ ns) ->
    r_nodes (fold_left add_node ns R) = r_nodes R ++ ns.
  Proof.
    induction ns as [|a ns IH]; intros R H; cbn [fold_left].
    - rewrite app_nil_r. reflexivity.
    - assert (Ha : ~ In a (r_nodes R)).
      { intro Hin. apply NoDup_remove_2 in H. apply H. apply in_or_app. left. exact Hin. }
      assert (En : r_nodes (add_node R a) = r_nodes R ++ [a])
        by (rewrite add_node_absent by exact Ha; reflexivity).
      rewrite IH, En, <- app_assoc; [reflexivity|]. rewrite En, <- app_assoc. exact H.
  Qed.

  Lemma ring_new_nodes : forall ns vn rf, NoDup ns -> r_nodes (ring_new ns vn rf) = ns.
  Proof. intros. unfold Ring.ring_new. rewrite fold_add_nodes; [reflexivity | exact H]. Qed.

  Lemma ring_entry_member : forall R e, ring_inv R -> In e (r_ring R) -> In (e_node e) (r_nodes R).
  Proof.
    intros R e (_ & _ & Hp) He. apply (Permutation_in _ Hp) in He.
    unfold Ring.all_vnodes in He. apply in_flat_map in He. destruct He as [x [Hx He]].
    apply vnodes_node in He. subst. exact Hx.
  Qed.

  Lemma ring_filter_nonmember : forall R x, ring_inv R -> ~ In x (r_nodes R) ->
    filter (fun e => negb (e_node e =? x)) (r_ring R) = r_ring R.
  Proof.
    intros R x HI Hx. apply filter_all. intros e He. apply negb_true_iff, N.eqb_neq. intros <-.
    apply Hx, ring_entry_member; assumption.
  Qed.

  Lemma member_has_entry : forall R x, ring_inv R -> 0 < r_vn R -> In x (r_nodes R) ->
    exists e, In e (r_ring R) /\ e_node e = x.
  Proof.
    intros R x (_ & _ & Hp) Hv Hx. exists (vpos x 0, (x, 0)). split; [|reflexivity].
    apply (Permutation_in _ (Permutation_sym Hp)). unfold Ring.all_vnodes.
    apply in_flat_map. exists x. split; [exact Hx|].
    unfold Ring.vnodes_of. apply in_map_iff. exists 0. split; [reflexivity | apply nseq_In; exact Hv].
  Qed.

  Lemma positions_distinct_perm : forall ns ns' vn, Permutation ns ns' ->
    positions_distinct ns vn -> positions_distinct ns' vn.
  Proof.
    intros ns ns' vn Hp. apply Permutation_NoDup, Permutation_map.
    unfold Ring.all_vnodes. apply Permutation_flat_map. exact Hp.
  Qed.

  Lemma positions_distinct_iff_ring : forall R, ring_inv R ->
    (positions_distinct (r_nodes R) (r_vn R) <-> NoDup (map e_pos (r_ring R))).
  Proof.
    intros R (_ & _ & P). split; apply Permutation_NoDup, Permutation_map; [symmetry|]; exact P.
  Qed.

  (* the clockwise walk = the first min(rf, n) distinct nodes of the rotated ring: with
     [acc] collected so far, it appends the first occurrences not yet in [acc] *)
  Lemma walk_spec : forall l n nn acc,
    walk l n nn acc =
    acc ++ firstn (Nat.min n nn - length acc)
                  (filter (fun y => negb (mem y acc)) (nub (map e_node l))).
  Proof.
    induction l as [|e l IH]; intros n nn acc; cbn [walk map nub filter].
    - rewrite firstn_nil, app_nil_r. reflexivity.
    - rewrite filter_filter_and.
      destruct ((length acc <? n)%nat && (length acc <? nn)%nat) eqn:C.
      + apply andb_true_iff in C. destruct C as [C1 C2].
        apply Nat.ltb_lt in C1. apply Nat.ltb_lt in C2. rewrite IH.
        destruct (mem (e_node e) acc) eqn:M; cbn [negb].
        * do 2 f_equal. apply filter_ext. intro y.
          destruct (N.eqb_spec y (e_node e)) as [->|_]; [rewrite M|]; reflexivity.
        * rewrite app_length. cbn [length].
          replace (Nat.min n nn - length acc)%nat with (S (Nat.min n nn - (length acc + 1))) by lia.
          cbn [firstn]. rewrite <- app_assoc. cbn [app]. do 3 f_equal.
          apply filter_ext. intro y. rewrite mem_snoc, mem_cons. apply negb_orb.
      + replace (Nat.min n nn - length acc)%nat with O; [rewrite app_nil_r; reflexivity|].
        apply andb_false_iff in C. destruct C as [C|C]; apply Nat.ltb_ge in C; lia.
  Qed.

  (* what get_replicas_with_rf computes, for whatever index the binary search returned *)
  Theorem replicas_at_spec : forall R kp rf o,
    replicas_at R kp rf o =
    firstn (Nat.min (N.to_nat rf) (length (r_nodes R)))
           (nub (map e_node (rot (bsearch (r_ring R) kp o) (r_ring R)))).
  Proof.
    intros R kp rf o. unfold replicas_at.
    destruct (r_ring R) as [|e l] eqn:E.
    - rewrite rot_nil. cbn [map nub]. rewrite firstn_nil. reflexivity.
    - rewrite walk_spec. cbn [app length]. rewrite Nat.sub_0_r, filter_all by reflexivity.
      f_equal. lia.
  Qed.

  Lemma nub_rot_members : forall R s x, ring_inv R ->
    In x (nub (map e_node (rot s (r_ring R)))) -> In x (r_nodes R).
  Proof.
    intros R s x HI H. rewrite nub_In in H. apply in_map_iff in H. destruct H as [e [He Hin]].
    subst. rewrite rot_In in Hin. apply ring_entry_member; assumption.
  Qed.

  Lemma nub_rot_length : forall R s, ring_inv R ->
    (length (nub (map e_node (rot s (r_ring R)))) <= length (r_nodes R))%nat.
  Proof.
    intros R s HI. apply NoDup_incl_length; [apply nub_NoDup|].
    intros x Hx. eapply nub_rot_members; eassumption.
  Qed.

  Lemma nub_rot_length_full : forall R s, ring_inv R -> 0 < r_vn R ->
    length (nub (map e_node (rot s (r_ring R)))) = length (r_nodes R).
  Proof.
    intros R s HI Hv. apply Nat.le_antisymm; [apply nub_rot_length; exact HI|].
    apply NoDup_incl_length; [apply HI|]. intros x Hx.
    destruct (member_has_entry R x HI Hv Hx) as [e [He Hn]].
    apply nub_In. apply in_map_iff. exists e. split; [exact Hn|]. apply rot_In. exact He.
  Qed.

  Theorem replicas_at_firstn : forall R kp rf o, ring_inv R ->
    replicas_at R kp rf o =
    firstn (N.to_nat rf) (nub (map e_node (rot (bsearch (r_ring R) kp o) (r_ring R)))).
  Proof.
    intros. rewrite replicas_at_spec. apply firstn_min_len. apply nub_rot_length. assumption.
  Qed.

  Lemma replicas_at_NoDup : forall R kp rf o, NoDup (replicas_at R kp rf o).
  Proof.
    intros R kp rf o. rewrite replicas_at_spec. set (k := Nat.min _ _). set (D := nub _).
    apply (NoDup_app_l _ _ (skipn k D)). rewrite firstn_skipn. apply nub_NoDup.
  Qed.

  Theorem replicas_shape : forall R kp rf o, ring_inv R ->
    NoDup (replicas_at R kp rf o) /\
    incl (replicas_at R kp rf o) (r_nodes R) /\
    (0 < r_vn R ->
     length (replicas_at R kp rf o) = Nat.min (N.to_nat rf) (length (r_nodes R))).
  Proof.
    intros R kp rf o HI. split; [apply replicas_at_NoDup|]. rewrite replicas_at_spec. split.
    - intros x Hx. apply firstn_In in Hx. eapply nub_rot_members; eassumption.
    - intro Hv. rewrite firstn_length, nub_rot_length_full by assumption. lia.
  Qed.

  (* the ring read clockwise from its first entry at or after kp *)
  Definition canon_rot (l : list (N * (N * N))) (kp : N) : list (N * (N * N)) :=
    filter (fun e => kp <=? e_pos e) l ++ filter (fun e => e_pos e <? kp) l.

  Lemma lower_le : forall l kp, (lower l kp <= length l)%nat.
  Proof.
    induction l as [|e l IH]; intro kp; cbn [lower length]; [lia|].
    destruct (e_pos e <? kp); [specialize (IH kp)|]; lia.
  Qed.

  Lemma lower_split : forall l kp, StronglySorted ple l ->
    skipn (lower l kp) l = filter (fun e => kp <=? e_pos e) l /\
    firstn (lower l kp) l = filter (fun e => e_pos e <? kp) l.
  Proof.
    intros l kp H. induction H as [|a l Hs IH Hf]; [split; reflexivity|].
    cbn [lower filter]. rewrite N.leb_antisym.
    destruct (e_pos a <? kp) eqn:E; cbn [negb skipn firstn].
    - destruct IH as [-> ->]. split; reflexivity.
    - apply N.ltb_ge in E. rewrite Forall_forall in Hf. unfold ple in Hf.
      rewrite filter_all, filter_none; [split; reflexivity | |]; intros b Hb; apply Hf in Hb.
      + apply N.ltb_ge. lia.
      + apply N.leb_le. lia.
  Qed.

  Lemma rot_lower : forall l kp, StronglySorted ple l -> rot (lower l kp) l = canon_rot l kp.
  Proof.
    intros l kp H. unfold rot, canon_rot. destruct (lower_split l kp H) as [-> ->]. reflexivity.
  Qed.

  Lemma run_eq_le1 : forall l kp, NoDup (map e_pos l) -> (run_eq l kp <= 1)%nat.
  Proof.
    intros [|a [|b l]] kp H; cbn [run_eq]; [lia | destruct (e_pos a =? kp); lia |].
    destruct (e_pos a =? kp) eqn:Ea; [|lia]. destruct (e_pos b =? kp) eqn:Eb; [|lia].
    apply N.eqb_eq in Ea, Eb. cbn [map] in H. apply NoDup_cons_iff in H.
    destruct H as [Hn _]. destruct Hn. left. congruence.
  Qed.

  Theorem bsearch_oracle_irrelevant : forall l kp o,
    NoDup (map e_pos l) -> bsearch l kp o = bsearch l kp 0.
  Proof.
    intros l kp o H. unfold bsearch.
    assert (C : (run_eq (skipn (lower l kp) l) kp <= 1)%nat).
    { apply run_eq_le1. rewrite <- (firstn_skipn (lower l kp) l) in H.
      rewrite map_app in H. apply NoDup_app_r in H. exact H. }
    destruct (run_eq (skipn (lower l kp) l) kp) as [|[|c]]; [reflexivity| |lia].
    rewrite Nat.mod_1_r. reflexivity.
  Qed.

  Lemma rot_bsearch0 : forall l kp, StronglySorted ple l ->
    rot (bsearch l kp 0) l = canon_rot l kp.
  Proof.
    intros l kp H. rewrite <- (rot_lower l kp H). unfold bsearch.
    destruct (run_eq (skipn (lower l kp) l) kp).
    - (* Err(i): i mod len differs from i only for i = len, a full turn *)
      destruct (Nat.eq_dec (lower l kp) (length l)) as [E|E].
      + rewrite E. destruct l as [|a l]; [reflexivity|].
        rewrite Nat.mod_same by discriminate. unfold rot.
        rewrite skipn_all, firstn_all, app_nil_r. reflexivity.
      + pose proof (lower_le l kp). rewrite Nat.mod_small by lia. reflexivity.
    - rewrite Nat.mod_0_l by discriminate. rewrite Nat.add_0_r. reflexivity.
  Qed.

  Theorem replicas_at_canon : forall R kp rf o, ring_inv R -> NoDup (map e_pos (r_ring R)) ->
    replicas_at R kp rf o = firstn (N.to_nat rf) (nub (map e_node (canon_rot (r_ring R) kp))).
  Proof.
    intros R kp rf o HI HD. rewrite replicas_at_firstn by exact HI.
    rewrite bsearch_oracle_irrelevant by exact HD.
    rewrite rot_bsearch0 by apply HI. reflexivity.
  Qed.

  Theorem placement_function_of_membership : forall R1 R2,
    ring_inv R1 -> ring_inv R2 -> r_vn R1 = r_vn R2 ->
    Permutation (r_nodes R1) (r_nodes R2) ->
    positions_distinct (r_nodes R1) (r_vn R1) ->
    r_ring R1 = r_ring R2 /\
    forall kp rf o1 o2, replicas_at R1 kp rf o1 = replicas_at R2 kp rf o2.
  Proof.
    intros R1 R2 I1 I2 Hv Hp Hd.
    pose proof (proj1 (positions_distinct_iff_ring R1 I1) Hd) as D1.
    assert (E : r_ring R1 = r_ring R2).
    { destruct I1 as (_ & S1 & P1), I2 as (_ & S2 & P2). apply sorted_perm_unique; auto.
      rewrite P1, P2, Hv. unfold Ring.all_vnodes. apply Permutation_flat_map. exact Hp. }
    assert (D2 : NoDup (map e_pos (r_ring R2))) by (rewrite <- E; exact D1).
    split; [exact E|]. intros kp rf o1 o2.
    rewrite (replicas_at_canon R1), (replicas_at_canon R2), E by assumption. reflexivity.
  Qed.

  Theorem ring_perm : forall ns1 ns2 vn rf, Permutation ns1 ns2 -> NoDup ns1 ->
    positions_distinct ns1 vn ->
    r_ring (ring_new ns1 vn rf) = r_ring (ring_new ns2 vn rf) /\
    forall kp rf' o1 o2,
      replicas_at (ring_new ns1 vn rf) kp rf' o1 = replicas_at (ring_new ns2 vn rf) kp rf' o2.
  Proof.
    intros ns1 ns2 vn rf Hp Hn Hd.
    assert (Hn2 : NoDup ns2) by (eapply Permutation_NoDup; eassumption).
    apply placement_function_of_membership.
    1, 2: rewrite ring_new_run; apply reachable_inv.
    - rewrite !ring_new_run, !reachable_vn. reflexivity.
    - rewrite !ring_new_nodes by assumption. exact Hp.
    - rewrite ring_new_nodes, ring_new_run, reachable_vn by assumption. exact Hd.
  Qed.

  Lemma canon_rot_filter : forall p l kp, canon_rot (filter p l) kp = filter p (canon_rot l kp).
  Proof.
    intros. unfold canon_rot. rewrite filter_app. f_equal; apply filter_comm.
  Qed.

  (* the core: [Rs] is [Rb] without the entries of node x; if x is not among the
     replicas computed on [Rb], both rings give the same replicas *)
  Lemma replicas_filter_core : forall Rb Rs x kp rf ob os,
    ring_inv Rb -> ring_inv Rs -> NoDup (map e_pos (r_ring Rb)) ->
    r_ring Rs = filter (fun e => negb (e_node e =? x)) (r_ring Rb) ->
    ~ In x (replicas_at Rb kp rf ob) ->
    replicas_at Rs kp rf os = replicas_at Rb kp rf ob.
  Proof.
    intros Rb Rs x kp rf ob os Ib Is Db E Hx.
    assert (Ds : NoDup (map e_pos (r_ring Rs))) by (rewrite E; apply NoDup_map_filter; exact Db).
    rewrite (replicas_at_canon Rb) in * by assumption.
    rewrite (replicas_at_canon Rs) by assumption.
    rewrite E, canon_rot_filter.
    rewrite <- (filter_map_comm _ _ e_node (fun y => negb (y =? x))).
    rewrite nub_filter. apply firstn_filter_absent. exact Hx.
  Qed.

  (* by stability of the sort, also when positions collide *)
  Lemma add_node_ring_filter : forall R x, ring_inv R -> ~ In x (r_nodes R) ->
    r_ring R = filter (fun e => negb (e_node e =? x)) (r_ring (add_node R x)).
  Proof.
    intros R x HI Hx. rewrite add_node_absent by exact Hx.
    cbn [r_ring]. rewrite filter_sort, filter_app, ring_filter_nonmember by assumption.
    rewrite (filter_none _ _ (vnodes_of (r_vn R) x)).
    - rewrite app_nil_r. symmetry. apply sort_id. apply HI.
    - intros e He. apply vnodes_node in He. rewrite He, N.eqb_refl. reflexivity.
  Qed.

  Theorem minimal_disruption_add : forall R x kp rf o1 o2,
    ring_inv R ->
    positions_distinct (x :: r_nodes R) (r_vn R) ->
    ~ In x (replicas_at (add_node R x) kp rf o1) ->
    replicas_at (add_node R x) kp rf o1 = replicas_at R kp rf o2.
  Proof.
    intros R x kp rf o1 o2 HI Hd Hn. destruct (in_dec N.eq_dec x (r_nodes R)) as [Hx|Hx].
    { (* a member joins again: the ring stays, only the search choice may differ *)
      rewrite add_node_present by exact Hx.
      apply (placement_function_of_membership R R); auto.
      unfold Ring.positions_distinct, Ring.all_vnodes in *. cbn [flat_map] in Hd.
      rewrite map_app in Hd. exact (NoDup_app_r _ _ _ Hd). }
    symmetry.
    pose proof (add_node_inv R x HI) as HI'.
    apply (replicas_filter_core (add_node R x) R x); auto.
    - apply positions_distinct_iff_ring; [exact HI'|].
      rewrite add_node_absent by exact Hx. cbn [r_nodes r_vn].
      apply (positions_distinct_perm _ _ _ (Permutation_cons_append _ x)). exact Hd.
    - apply add_node_ring_filter; assumption.
  Qed.

  Theorem minimal_disruption_remove : forall R x kp rf o1 o2,
    ring_inv R -> positions_distinct (r_nodes R) (r_vn R) ->
    ~ In x (replicas_at R kp rf o1) ->
    replicas_at (remove_node R x) kp rf o2 = replicas_at R kp rf o1.
  Proof.
    intros R x kp rf o1 o2 HI Hd Hn.
    apply (replicas_filter_core R (remove_node R x) x); auto.
    - apply remove_node_inv. exact HI.
    - apply positions_distinct_iff_ring; assumption.
  Qed.

  Lemma remove_node_absent : forall R x kp rf o, ring_inv R -> ~ In x (r_nodes R) ->
    replicas_at (remove_node R x) kp rf o = replicas_at R kp rf o.
  Proof.
    intros R x kp rf o HI Hx. unfold replicas_at. cbn [remove_node r_ring r_nodes].
    rewrite ring_filter_nonmember, filter_neq_absent by assumption. reflexivity.
  Qed.

  Notation get_replicas := (Ring.get_replicas kpos).
  Notation get_gossip_targets := (Ring.get_gossip_targets kpos).
  Notation route_selective := (Ring.route_selective kpos).
  Notation route_deltas := (Ring.route_deltas kpos).
  Notation queue_deltas := (Ring.queue_deltas kpos).
  Notation owed := (Ring.owed kpos).

  Theorem route_selective_deliveries : forall r os deltas t,
    deliveries (route_selective r os deltas) t =
    filter (fun d => mem t (get_replicas (gr_ring r) (d_key d) (os (kpos (d_key d)))) &&
                     negb (t =? gr_me r) && has_peer r t) deltas.
  Proof.
    intros r os deltas t. rewrite route_selective_loop, deliveries_route.
    - apply filter_ext. intros d. unfold Ring.get_gossip_targets. rewrite mem_filter. reflexivity.
    - intro d. apply NoDup_filter, replicas_at_NoDup.
  Qed.

  Theorem selective_exact : forall r os deltas t, ring_inv (gr_ring r) -> knows_members r ->
    deliveries (route_selective r os deltas) t = owed r os deltas t.
  Proof.
    intros r os deltas t HI HK. rewrite route_selective_deliveries.
    unfold Ring.owed. apply filter_ext. intros d.
    destruct (mem t (get_replicas _ _ _)) eqn:M; [|reflexivity].
    destruct (N.eqb_spec t (gr_me r)) as [E|E]; [reflexivity|]. cbn [negb andb].
    apply HK; [|exact E]. apply mem_In in M. revert M. apply replicas_shape. exact HI.
  Qed.

  Lemma route_selective_ok : forall r os deltas, tbl_ok (route_selective r os deltas).
  Proof.
    intros r os deltas. rewrite route_selective_loop. apply route_loop_ok. split; constructor.
  Qed.

  Theorem selective_table_entries : forall r os deltas t ds, ring_inv (gr_ring r) -> knows_members r ->
    (In (t, ds) (route_selective r os deltas) <-> ds = owed r os deltas t /\ ds <> []).
  Proof.
    intros r os deltas t ds HI HK. rewrite tbl_entry_iff by apply route_selective_ok.
    rewrite selective_exact by assumption. reflexivity.
  Qed.

  Definition targeted_msg (g : gstate) (p : N * list delta) : option N * gmsg :=
    (Some (fst p), TargetedDelta (g_id g) (fst p) (snd p) (g_epoch g)).

  Theorem queue_deltas_selective : forall ord os g r deltas,
    g_router g = Some r -> gr_selective r = true ->
    Permutation (ord (route_selective r os deltas)) (route_selective r os deltas) ->
    N.of_nat (length (g_queue g)) + N.of_nat (length (route_selective r os deltas)) <= MAX_OUTBOUND_QUEUE ->
    g_queue (queue_deltas ord os g deltas) =
    g_queue g ++ map (targeted_msg g) (ord (route_selective r os deltas)).
  Proof.
    intros ord os g r deltas Hr Hs Hp Hcap.
    unfold Ring.queue_deltas. destruct deltas as [|d0 ds0].
    { (* an empty batch queues nothing, and the empty table has one order *)
      apply Permutation_sym, Permutation_nil in Hp. rewrite Hp. symmetry. apply app_nil_r. }
    rewrite Hr, Hs. unfold Ring.route_deltas. rewrite Hs. cbn [g_queue].
    set (tbl := route_selective r os (d0 :: ds0)) in *.
    rewrite filter_nonempty_all
      by (apply (Permutation_Forall (Permutation_sym Hp)), route_selective_ok).
    unfold enforce_capacity. rewrite app_length, map_length, (Permutation_length Hp).
    assert (MAX_OUTBOUND_QUEUE <? N.of_nat (length (g_queue g) + length tbl) = false) as ->
      by (apply N.ltb_ge; lia).
    reflexivity.
  Qed.

  Theorem queue_deltas_covers : forall ord os g r deltas,
    g_router g = Some r -> gr_selective r = true -> deltas <> [] ->
    ring_inv (gr_ring r) -> knows_members r ->
    Permutation (ord (route_selective r os deltas)) (route_selective r os deltas) ->
    N.of_nat (length (g_queue g)) + N.of_nat (length (route_selective r os deltas)) <= MAX_OUTBOUND_QUEUE ->
    exists msgs,
      g_queue (queue_deltas ord os g deltas) = g_queue g ++ msgs /\
      NoDup (map fst msgs) /\
      forall m, In m msgs <->
                exists t, m = (Some t, TargetedDelta (g_id g) t (owed r os deltas t) (g_epoch g)) /\
                          owed r os deltas t <> [].
  Proof.
    intros ord os g r deltas Hr Hs _ HI HK Hp Hcap.
    exists (map (targeted_msg g) (ord (route_selective r os deltas))).
    split; [apply queue_deltas_selective; assumption|]. split.
    - rewrite map_map. cbn [targeted_msg fst]. rewrite <- (map_map fst (@Some N)).
      apply Injective_map_NoDup; [intros a b E; injection E; auto|].
      apply (Permutation_NoDup (Permutation_map fst (Permutation_sym Hp))), route_selective_ok.
    - intro m. rewrite in_map_iff. setoid_rewrite Hp. split.
      + intros [[t ds] [E Hin]]. apply (selective_table_entries r os deltas t ds HI HK) in Hin.
        destruct Hin as [E1 E2]. exists t. subst. split; [reflexivity | exact E2].
      + intros [t [E Hne']]. exists (t, owed r os deltas t). split; [subst; reflexivity|].
        apply (selective_table_entries r os deltas t _ HI HK). split; [reflexivity | exact Hne'].
  Qed.

  Corollary queue_deltas_no_starvation : forall ord os g r deltas d t,
    g_router g = Some r -> gr_selective r = true ->
    ring_inv (gr_ring r) -> knows_members r ->
    Permutation (ord (route_selective r os deltas)) (route_selective r os deltas) ->
    N.of_nat (length (g_queue g)) + N.of_nat (length (route_selective r os deltas)) <= MAX_OUTBOUND_QUEUE ->
    In d deltas -> In t (get_replicas (gr_ring r) (d_key d) (os (kpos (d_key d)))) -> t <> gr_me r ->
    exists ds, In (Some t, TargetedDelta (g_id g) t ds (g_epoch g)) (g_queue (queue_deltas ord os g deltas)) /\ In d ds.
  Proof.
    intros ord os g r deltas d t Hr Hs HI HK Hp Hcap Hd Ht Hme.
    assert (Hne : deltas <> []) by (intro; subst; destruct Hd).
    destruct (queue_deltas_covers ord os g r deltas Hr Hs Hne HI HK Hp Hcap) as [msgs [Hq [_ Hm]]].
    assert (Hin : In d (owed r os deltas t)).
    { unfold Ring.owed. apply filter_In. split; [exact Hd|]. apply andb_true_iff. split.
      - apply mem_In. exact Ht.
      - apply negb_true_iff. apply N.eqb_neq. exact Hme. }
    exists (owed r os deltas t). split; [|exact Hin].
    rewrite Hq. apply in_or_app. right. apply Hm. exists t. split; [reflexivity|].
    intro E. rewrite E in Hin. destruct Hin.
  Qed.

  Theorem route_broadcast_deliveries : forall r deltas t,
    deliveries (route_broadcast r deltas) t =
    if has_peer r t && negb (t =? gr_me r) then deltas else [].
  Proof.
    intros r deltas t. unfold route_broadcast, has_peer.
    rewrite <- (mem_filter t (fun k => negb (k =? gr_me r))), filter_map_comm.
    induction (filter _ (gr_peers r)) as [|[k a] ps IH]; [reflexivity|].
    cbn [map fst]. rewrite deliveries_cons, mem_cons, IH, (N.eqb_sym t k).
    destruct (k =? t); reflexivity.
  Qed.

End RingFacts.

Lemma pa_insert_fresh : forall k a m, ~ In k (map fst m) -> pa_insert k a m = m ++ [(k, a)].
Proof.
  intros k a. induction m as [|[k' a'] m IH]; intro H; [reflexivity|].
  cbn [pa_insert map fst In] in *. destruct (N.eqb_spec k' k); [exfalso; apply H; left; assumption|].
  cbn [app]. f_equal. apply IH. intro Hin. apply H. right. exact Hin.
Qed.

Lemma fold_pa_insert : forall (f : N -> N) l m,
  NoDup (map fst m ++ map f l) ->
  fold_left (fun m i => pa_insert (f i) i m) l m = m ++ map (fun i => (f i, i)) l.
Proof.
  intros f. induction l as [|i l IH]; intros m H; cbn [fold_left map].
  - rewrite app_nil_r. reflexivity.
  - cbn [map] in H. rewrite pa_insert_fresh.
    + rewrite IH.
      * rewrite <- app_assoc. reflexivity.
      * rewrite map_app. cbn [map fst]. rewrite <- app_assoc. exact H.
    + apply NoDup_remove_2 in H. intro Hin. apply H. apply in_or_app. left. exact Hin.
Qed.

Lemma peer_id_of_inj : forall rid, Injective (peer_id_of rid).
Proof.
  intros rid i j. unfold peer_id_of.
  destruct (N.leb_spec rid (i + 1)), (N.leb_spec rid (j + 1)); lia.
Qed.

(* no insertion overwrites another *)
Lemma from_config_peers_eq : forall rid npeers,
  from_config_peers rid npeers = map (fun i => (peer_id_of rid i, i)) (nseq npeers).
Proof.
  intros rid npeers. unfold from_config_peers. rewrite fold_pa_insert; [reflexivity|].
  apply Injective_map_NoDup; [apply peer_id_of_inj | apply nseq_NoDup].
Qed.

Theorem from_config_ids : forall rid npeers t, 1 <= rid <= npeers + 1 ->
  (In t (map fst (from_config_peers rid npeers)) <-> 1 <= t <= npeers + 1 /\ t <> rid).
Proof.
  intros rid npeers t Hr. rewrite from_config_peers_eq, map_map. cbn [fst].
  rewrite in_map_iff. split.
  - intros [i [E Hi]]. apply nseq_In in Hi. unfold peer_id_of in E.
    destruct (N.leb_spec rid (i + 1)); lia.
  - intros [Ht Hne]. destruct (N.lt_ge_cases t rid) as [L|L].
    + exists (t - 1). split; [|apply nseq_In; lia]. unfold peer_id_of.
      destruct (N.leb_spec rid (t - 1 + 1)); lia.
    + exists (t - 2). split; [|apply nseq_In; lia]. unfold peer_id_of.
      destruct (N.leb_spec rid (t - 2 + 1)); lia.
Qed.

Lemma peer_id_of_mono : forall rid i j, i < j -> peer_id_of rid i < peer_id_of rid j.
Proof.
  intros rid i j H. unfold peer_id_of.
  destruct (N.leb_spec rid (i + 1)), (N.leb_spec rid (j + 1)); lia.
Qed.

Theorem from_config_knows_members : forall rid npeers sel part en R,
  1 <= rid <= npeers + 1 ->
  (forall x, In x (r_nodes R) -> 1 <= x <= npeers + 1) ->
  knows_members (from_config rid npeers sel part en R).
Proof.
  intros rid npeers sel part en R Hr HR x Hx Hne. cbn [from_config gr_ring gr_me] in *.
  unfold has_peer. cbn [gr_peers]. apply mem_In. apply from_config_ids; [exact Hr|].
  split; [apply HR; exact Hx | exact Hne].
Qed.

(* deciding [positions_distinct] on concrete memberships *)
Fixpoint nodupb (l : list N) : bool :=
  match l with
  | [] => true
  | x :: l' => negb (mem x l') && nodupb l'
  end.

Lemma nodupb_sound : forall l, nodupb l = true -> NoDup l.
Proof.
  induction l as [|a l IH]; intro H; [constructor|].
  cbn [nodupb] in H. apply andb_true_iff in H. destruct H as [H1 H2].
  constructor; [|apply IH; exact H2]. apply mem_nIn. apply negb_true_iff. exact H1.
Qed.

(* the functions the correspondence executes are the reference SipHash instances *)
Lemma fast_vpos_eq : forall x i, fast_vpos x i = sip_vpos x i.
Proof. intros. unfold fast_vpos, sip_vpos. apply sip13f_eq. Qed.
Lemma fast_kpos_eq : forall k, fast_kpos k = sip_kpos k.
Proof. intros. unfold fast_kpos, sip_kpos, hash_str. apply sip13f_eq. Qed.

(* the ring functions are extensional in the position function; this is how the examples
   below replace [sip_vpos] by [fast_vpos] *)
Section PositionsPointwise.
  Variables v1 v2 : N -> N -> N.
  Hypothesis E : forall x i, v1 x i = v2 x i.

  Lemma vnodes_of_ext : forall vn x, vnodes_of v1 vn x = vnodes_of v2 vn x.
  Proof. intros. apply map_ext. intro i. rewrite E. reflexivity. Qed.

  Lemma all_vnodes_ext : forall vn ns, all_vnodes v1 vn ns = all_vnodes v2 vn ns.
  Proof. intros. apply flat_map_ext. intro x. apply vnodes_of_ext. Qed.

  Lemma add_node_ext : forall R x, add_node v1 R x = add_node v2 R x.
  Proof. intros. unfold add_node. rewrite vnodes_of_ext. reflexivity. Qed.

  Lemma ring_new_ext : forall ns vn rf, ring_new v1 ns vn rf = ring_new v2 ns vn rf.
  Proof.
    intros ns vn rf. unfold ring_new. generalize (ring_empty vn rf).
    induction ns as [|a ns IH]; intro R; cbn [fold_left]; [reflexivity|].
    rewrite add_node_ext. apply IH.
  Qed.
End PositionsPointwise.

Definition ex_R3 : ring := ring_new sip_vpos [1; 2; 3] 4 2.
Definition ex_k0 : list N := [107; 48].   (* "k0" *)
Definition ex_k1 : list N := [107; 49].   (* "k1" *)

(* The examples are evaluated over [fast_vpos] / [fast_kpos]: [sip13f] reduces modulo 2^64
   by masking where [sip13] divides, which the kernel's reduction pays dearly for.  The two
   rings and the two key positions are bound once, so that each is evaluated once; the
   positions of all sixteen virtual nodes are read off the larger ring. *)
Lemma ex_fast :
  let R3 := ring_new fast_vpos [1; 2; 3] 4 2 in
  let R4 := add_node fast_vpos R3 4 in
  let p0 := fast_kpos ex_k0 in
  let p1 := fast_kpos ex_k1 in
  nodupb (map e_pos (r_ring R4)) = true /\
  replicas_at R3 p0 2 0 = [2; 1] /\ replicas_at R4 p0 2 0 = [4; 2] /\
  replicas_at R3 p1 2 0 = [3; 2] /\ replicas_at R4 p1 2 0 = [3; 2].
Proof. vm_compute. repeat split; reflexivity. Qed.

Lemma ex_positions_distinct : positions_distinct sip_vpos [4; 1; 2; 3] 4.
Proof.
  unfold positions_distinct. rewrite <- (all_vnodes_ext _ _ fast_vpos_eq).
  apply (positions_distinct_perm fast_vpos ([1; 2; 3] ++ [4])); [symmetry; apply Permutation_cons_append|].
  apply (positions_distinct_iff_ring fast_vpos (add_node fast_vpos (ring_new fast_vpos [1; 2; 3] 4 2) 4)).
  - rewrite ring_new_run. apply (apply_op_inv fast_vpos _ (OpAdd 4)), reachable_inv.
  - apply nodupb_sound, ex_fast.
Qed.

Lemma ex_disruption :
  get_replicas sip_kpos ex_R3 ex_k0 0 = [2; 1] /\
  get_replicas sip_kpos (add_node sip_vpos ex_R3 4) ex_k0 0 = [4; 2] /\
  get_replicas sip_kpos ex_R3 ex_k1 0 = [3; 2] /\
  get_replicas sip_kpos (add_node sip_vpos ex_R3 4) ex_k1 0 = [3; 2].
Proof.
  unfold ex_R3, get_replicas, get_replicas_with_rf.
  rewrite <- (ring_new_ext _ _ fast_vpos_eq), <- (add_node_ext _ _ fast_vpos_eq), <- !fast_kpos_eq.
  exact (proj2 ex_fast).
Qed.

Lemma tie_depends_on_join_order :
  let collide := fun _ _ : N => 7 in
  replicas_at (ring_new collide [1; 2] 1 1) 0 1 0 = [1] /\
  replicas_at (ring_new collide [2; 1] 1 1) 0 1 0 = [2].
Proof. vm_compute. split; reflexivity. Qed.
