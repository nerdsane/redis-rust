(* Lemmas about the reference Redis model (Model/Redis.v): the C17 laws (a command that replies an
   error changes nothing; a read-only command changes nothing), and for C01 the reachable-state
   invariant, key locality, the equality of the two dialects outside the known class, and the
   laws of [lrange].  A name ending in [_lemma] is the statement of a theorem of Props/C01.v or
   Props/C17.v, or one of its conjuncts. *)
From stdpp Require Import gmap.
From Coq Require Import ZArith NArith Lia String.
From RV Require Import Model.Redis Gen.ReadOnly.
Local Open Scope Z_scope.

Lemma advance_lookup (s : state) (t : N) (k : list N) :
  advance s t !! k = match s !! k with
                     | Some e => if alive t e then Some e else None
                     | None => None
                     end.
Proof.
  unfold advance. rewrite lookup_omap. destruct (s !! k); reflexivity.
Qed.

Lemma upd_lookup (s : state) k oe : upd s k oe !! k = oe.
Proof. destruct oe; simpl; [apply lookup_insert | apply lookup_delete]. Qed.
Lemma upd_lookup_ne (s : state) k oe k' : k ≠ k' → upd s k oe !! k' = s !! k'.
Proof. intros. destruct oe; simpl; [by apply lookup_insert_ne | by apply lookup_delete_ne]. Qed.
Lemma upd_id (s : gmap (list N) (value * option N)) k : upd s k (s !! k) = s.
Proof. destruct (s !! k) eqn:E; simpl; [by apply insert_id | by apply delete_notin]. Qed.

Lemma on_key_eq s k f : on_key s k f = (upd s k (f (s !! k)).1, (f (s !! k)).2).
Proof. unfold on_key. by destruct (f (s !! k)). Qed.

Lemma on_key_id s k f : (f (s !! k)).1 = s !! k → (on_key s k f).1 = s.
Proof. rewrite on_key_eq. simpl. intros ->. apply upd_id. Qed.

(* A single-key command is a function from the entry at its key to a new entry and a reply
   ([key_fun]).  Everything C17 and the invariant of C01 need to know of such a function is said by
   [outcome_ok]: if the reply is an error the entry is handed back as it was, and an acceptable entry (no
   empty collection, deadline in the future) is turned into an acceptable one. *)

Definition oentry_ok (now : N) (oe : option (value * option N)) : Prop :=
  match oe with Some e => entry_ok now e | None => True end.

Definition outcome_ok (now : N) (oe : option (value * option N)) (p : option (value * option N) * reply) : Prop :=
  (is_error p.2 = true → p.1 = oe) ∧ (oentry_ok now oe → oentry_ok now p.1).

Lemma mk_ok now v d :
  match d with Some t => (now < t)%N | None => True end → oentry_ok now (mk v d).
Proof. unfold mk. destruct (value_nonempty v) eqn:E; simpl; [|done]. intros. split; done. Qed.

Lemma with_deadline_ok now v w : value_nonempty v = true → oentry_ok now (with_deadline now v w).
Proof.
  unfold with_deadline. intros Hv. destruct (Z.leb_spec w (Z.of_N now)); simpl; [done|].
  split; simpl; [done | lia].
Qed.

(* A command function either hands the entry back, with any reply (this is how every error is
   reported, and what every read does), or answers without error and writes: most often a value
   under the deadline the key had, which vanishes if it is empty. *)
Lemma outcome_same now oe r : outcome_ok now oe (oe, r).
Proof. split; [reflexivity | exact id]. Qed.
Lemma outcome_ro now oe p : p.1 = oe → outcome_ok now oe p.
Proof. destruct p. simpl. intros ->. apply outcome_same. Qed.
Lemma outcome_write now oe e r : is_error r = false → (oentry_ok now oe → oentry_ok now e) → outcome_ok now oe (e, r).
Proof. intros Hr He. split; [simpl; by rewrite Hr | exact He]. Qed.
Lemma outcome_mk now oe w r : is_error r = false → outcome_ok now oe (mk w (entry_deadline oe), r).
Proof.
  intros Hr. apply outcome_write; [done|]. intros Hoe. apply mk_ok.
  destruct oe as [[v d]|]; [apply Hoe | done].
Qed.
Lemma outcome_str now v d b r : is_error r = false → outcome_ok now (Some (v, d)) (Some (VStr b, d), r).
Proof. apply (outcome_mk now (Some (v, d)) (VStr b)). Qed.

Lemma nonempty_linsert j (v : list N) l : value_nonempty (VList (<[j:=v]> l)) = value_nonempty (VList l).
Proof. destruct l; [done|]. destruct j; done. Qed.
Lemma nonempty_hinsert (h : gmap (list N) (list N)) f x : value_nonempty (VHash (<[f:=x]> h)) = true.
Proof.
  simpl. destruct (map_to_list (<[f:=x]> h)) eqn:E; [|done].
  apply map_to_list_empty_iff in E. by apply insert_non_empty in E.
Qed.

Lemma c_set_outcome now v x nx xx get oe : outcome_ok now oe (c_set now v x nx xx get oe).
Proof.
  assert (is_error (if get then old_str oe else ROk) = false) as Hr by (by destruct get, oe as [[[] ?]|]).
  (* the match of [c_set] on the expiry option holds the body twice: deadline given, or not *)
  unfold c_set. destruct (xopt_when now x) as [[[]|t]|]; [apply outcome_same | |].
  all: destruct (get && holds_nonstr oe); [apply outcome_same|].
  all: destruct (_ || _); [apply outcome_same|].
  all: apply outcome_write; [exact Hr|].
  - intros _. by apply with_deadline_ok.
  - (* only KEEPTTL keeps the old deadline *)
    intros Hoe. split; [done|]. destruct x; try done. destruct oe as [[? ?]|]; [apply Hoe | done].
Qed.

Lemma c_setnx_outcome now v oe : outcome_ok now oe (c_setnx v oe).
Proof. destruct oe; [apply outcome_same | by apply outcome_write]. Qed.

Lemma c_append_outcome now v oe : outcome_ok now oe (c_append v oe).
Proof.
  destruct oe as [[[] d]|]; try apply outcome_same.
  - by apply outcome_str.
  - by apply outcome_write.
Qed.

Lemma c_getset_outcome now dl v oe : outcome_ok now oe (c_getset dl v oe).
Proof.
  destruct oe as [[[] d]|]; try apply outcome_same.
  - destruct dl; [by apply outcome_write | by apply outcome_str].
  - by apply outcome_write.
Qed.

Lemma c_setrange_outcome now off v oe : outcome_ok now oe (c_setrange off v oe).
Proof.
  destruct oe as [[[] d]|], v; try apply outcome_same; simpl; (destruct (_ >? _); [apply outcome_same|]).
  - by apply outcome_str.
  - by apply outcome_write.
Qed.

Lemma c_getex_outcome now x oe : outcome_ok now oe (c_getex now x oe).
Proof.
  destruct oe as [[[] d]|]; try apply outcome_same. simpl.
  destruct (xopt_when now x) as [[[]|t]|]; [apply outcome_same | |].
  - apply outcome_write; [done|]. intros _. by apply with_deadline_ok.
  - destruct x; by first [apply outcome_str | apply outcome_write].
Qed.

Lemma c_getdel_outcome now oe : outcome_ok now oe (c_getdel oe).
Proof. destruct oe as [[[] d]|]; try apply outcome_same. by apply outcome_write. Qed.

Lemma c_incrby_outcome now z oe : outcome_ok now oe (c_incrby z oe).
Proof.
  destruct oe as [[[] d]|]; try apply outcome_same; simpl.
  - destruct (parse_i64 _); [|apply outcome_same]. destruct (in_i64 _); [|apply outcome_same].
    by apply outcome_str.
  - by apply outcome_write.
Qed.

Lemma c_decrby_outcome now z oe : outcome_ok now oe (c_decrby z oe).
Proof. unfold c_decrby. destruct (z =? I64MIN); [apply outcome_same | apply c_incrby_outcome]. Qed.

Lemma c_expire_at_outcome now w nx xx gt lt oe : outcome_ok now oe (c_expire_at now w nx xx gt lt oe).
Proof.
  destruct oe as [[v d]|]; [|apply outcome_same]. simpl.
  destruct (nx && _); [apply outcome_same|]. destruct (xx && _); [apply outcome_same|].
  destruct (gt && _); [apply outcome_same|]. destruct (lt && _); [apply outcome_same|].
  apply outcome_write; [done|]. intros [Hv _]. by apply with_deadline_ok.
Qed.

Lemma c_expire_outcome now sec nx xx gt lt oe : outcome_ok now oe (c_expire now sec nx xx gt lt oe).
Proof.
  unfold c_expire. destruct (_ || _); [apply outcome_same|]. destruct (_ >? _); [apply outcome_same|].
  apply c_expire_at_outcome.
Qed.
Lemma c_pexpire_outcome now ms nx xx gt lt oe : outcome_ok now oe (c_pexpire now ms nx xx gt lt oe).
Proof. unfold c_pexpire. destruct (_ >? _); [apply outcome_same | apply c_expire_at_outcome]. Qed.
Lemma c_expireat_outcome now ts oe : outcome_ok now oe (c_expireat now ts oe).
Proof. unfold c_expireat. destruct (_ || _); [apply outcome_same | apply c_expire_at_outcome]. Qed.

Lemma c_pexpireat_outcome now tms oe : outcome_ok now oe (c_pexpireat now tms oe).
Proof. apply c_expire_at_outcome. Qed.

Lemma c_persist_outcome now oe : outcome_ok now oe (c_persist oe).
Proof. destruct oe as [[v [d|]]|]; try apply outcome_same. apply outcome_write; [done|]. by intros [Hv _]. Qed.

Lemma c_push_outcome now left vs oe : outcome_ok now oe (c_push left vs oe).
Proof.
  destruct oe as [[[] d]|]; try apply outcome_same.
  all: by apply outcome_mk.
Qed.

Lemma c_pop_outcome now left oe : outcome_ok now oe (c_pop left oe).
Proof.
  destruct oe as [[[] d]|]; try apply outcome_same. simpl.
  destruct (pop_end left _) as [[x r]|]; [by apply outcome_mk | by apply outcome_write].
Qed.

Lemma c_lset_outcome now i v oe : outcome_ok now oe (c_lset i v oe).
Proof.
  destruct oe as [[[] d]|]; try apply outcome_same. simpl.
  destruct (norm_index _ i); [|apply outcome_same].
  apply outcome_write; [done|]. intros [Hl Hd]. split; [|done]. simpl fst. by rewrite nonempty_linsert.
Qed.

Lemma c_ltrim_outcome now a b oe : outcome_ok now oe (c_ltrim a b oe).
Proof. destruct oe as [[[] d]|]; try apply outcome_same. by apply outcome_mk. Qed.

Lemma c_sadd_outcome now ms oe : outcome_ok now oe (c_sadd ms oe).
Proof.
  destruct oe as [[[] d]|]; try apply outcome_same; simpl.
  all: destruct (sadd_all _ ms); by apply outcome_mk.
Qed.
Lemma c_srem_outcome now ms oe : outcome_ok now oe (c_srem ms oe).
Proof.
  destruct oe as [[[] d]|]; try apply outcome_same. simpl. destruct (srem_all _ ms). by apply outcome_mk.
Qed.
Lemma c_hset_outcome now fvs oe : outcome_ok now oe (c_hset fvs oe).
Proof.
  destruct oe as [[[] d]|]; try apply outcome_same; simpl.
  all: destruct (hset_all _ fvs); by apply outcome_mk.
Qed.
Lemma c_hdel_outcome now fs oe : outcome_ok now oe (c_hdel fs oe).
Proof.
  destruct oe as [[[] d]|]; try apply outcome_same. simpl. destruct (hdel_all _ fs). by apply outcome_mk.
Qed.
Lemma c_hincrby_outcome now f z oe : outcome_ok now oe (c_hincrby f z oe).
Proof.
  destruct oe as [[[] d]|]; try apply outcome_same; simpl.
  - unfold hincr. destruct (match _ !! f with Some b => parse_i64 b | None => Some 0 end); [|apply outcome_same].
    destruct (in_i64 _); [|apply outcome_same].
    apply outcome_write; [done|]. intros [_ Hd]. split; [apply nonempty_hinsert | done].
  - apply outcome_write; [done|]. intros _. split; [apply nonempty_hinsert | done].
Qed.
Lemma c_zadd_outcome now ps nx xx gt lt ch oe : outcome_ok now oe (c_zadd ps nx xx gt lt ch oe).
Proof.
  destruct oe as [[[] d]|]; try apply outcome_same; simpl.
  all: destruct (fold_left _ ps _) as [[z' a] c]; by apply outcome_mk.
Qed.
Lemma c_zrem_outcome now ms oe : outcome_ok now oe (c_zrem ms oe).
Proof.
  destruct oe as [[[] d]|]; try apply outcome_same. simpl. destruct (zrem_all _ ms). by apply outcome_mk.
Qed.

Local Hint Resolve c_set_outcome c_setnx_outcome c_append_outcome c_getset_outcome c_setrange_outcome c_getex_outcome
  c_getdel_outcome c_incrby_outcome c_decrby_outcome c_expire_outcome c_pexpire_outcome c_expireat_outcome c_pexpireat_outcome
  c_persist_outcome c_push_outcome c_pop_outcome c_lset_outcome c_ltrim_outcome c_sadd_outcome c_srem_outcome c_hset_outcome
  c_hdel_outcome c_hincrby_outcome c_zadd_outcome c_zrem_outcome : outcome.

(* What holds of the function of every single-key command is proved in this form: each case of
   [destruct c] then computes [key_fun] in the goal, and there is no equation to invert. *)
Lemma key_fun_case dl now c (P : list N → (option (value * option N) → option (value * option N) * reply) → Prop) :
  match key_fun dl now c with Some (k, f) => P k f | None => True end →
  ∀ k f, key_fun dl now c = Some (k, f) → P k f.
Proof. intros H k f K. by rewrite K in H. Qed.

Lemma key_fun_ro dl now c k f oe :
  key_fun dl now c = Some (k, f) → ro_impl (tag c) = true → (f oe).1 = oe.
Proof.
  intros K R. revert k f K. apply key_fun_case.
  destruct c; try discriminate R; try exact I; simpl.
  (* every branch returns [oe] itself; only the TTL family looks at the deadline as well *)
  all: try (destruct oe as [[[] ?]|]; reflexivity).
  all: destruct oe as [[? []]|]; reflexivity.
Qed.

Lemma key_fun_outcome dl now c k f oe : key_fun dl now c = Some (k, f) → outcome_ok now oe (f oe).
Proof.
  intros K. destruct (ro_impl (tag c)) eqn:R.
  - apply outcome_ro. by apply (key_fun_ro dl now c k).
  - revert k f K. apply key_fun_case.
    destruct c; try discriminate R; try exact I; simpl; auto with outcome.
Qed.

Lemma key_fun_err dl now c k f oe :
  key_fun dl now c = Some (k, f) → is_error (f oe).2 = true → (f oe).1 = oe.
Proof. intros K. apply (key_fun_outcome dl now c k f oe K). Qed.

Lemma key_fun_key dl dl' now now' c k f :
  key_fun dl now c = Some (k, f) → ∃ f', key_fun dl' now' c = Some (k, f').
Proof. revert k f. apply key_fun_case. destruct c; try exact I; by eexists. Qed.

Lemma c_rename_err s a b nx : is_error (c_rename s a b nx).2 = true → (c_rename s a b nx).1 = s.
Proof.
  unfold c_rename. destruct (s !! a); [|done]. destruct (bool_decide (a = b)); [done|].
  destruct (nx && _); [done|]. by destruct nx.
Qed.
Lemma c_lmove_err s a b fl tl : is_error (c_lmove s a b fl tl).2 = true → (c_lmove s a b fl tl).1 = s.
Proof.
  unfold c_lmove. destruct (s !! a) as [[[] d]|]; try done.
  destruct (pop_end fl _) as [[x r]|]; [|done]. destruct (bool_decide (a = b)); [done|].
  by destruct (s !! b) as [[[] dd]|].
Qed.

Theorem error_no_effect_lemma : ∀ dl s now c,
  is_error (exec dl s now c).2 = true → (exec dl s now c).1 = s.
Proof.
  intros dl s now c. unfold exec. destruct (cmd_reject dl c); [done|].
  unfold exec_wf. destruct (key_fun dl now c) as [[k f]|] eqn:K.
  - rewrite on_key_eq. simpl. intros Hr. rewrite (key_fun_err dl now c k f _ K Hr). apply upd_id.
  - destruct c; try discriminate K; simpl; try done.
    + (* MSETNX *) destruct (existsb _ _); done.
    + (* DEL *) destruct (del_all s _); done.
    + (* RENAME *) apply c_rename_err.
    + (* RENAMENX *) apply c_rename_err.
    + (* RPOPLPUSH *) apply c_lmove_err.
    + (* LMOVE *) apply c_lmove_err.
Qed.

Theorem read_only_no_effect_lemma : ∀ dl s now c,
  ro_impl (tag c) = true → (exec dl s now c).1 = s.
Proof.
  intros dl s now c R. unfold exec. destruct (cmd_reject dl c); [done|].
  unfold exec_wf. destruct (key_fun dl now c) as [[k f]|] eqn:K.
  - apply on_key_id. by apply (key_fun_ro dl now c k).
  - destruct c; try discriminate K; try discriminate R; done.
Qed.

Lemma Inv_upd s now k oe : Inv (s, now) → oentry_ok now oe → Inv (upd s k oe, now).
Proof.
  intros HI Ho k' e. simpl. destruct (decide (k = k')) as [->|Hne].
  - rewrite upd_lookup. intros ->. exact Ho.
  - rewrite upd_lookup_ne by done. apply HI.
Qed.

Lemma Inv_lookup s now k : Inv (s, now) → oentry_ok now (s !! k).
Proof. intros HI. destruct (s !! k) eqn:E; simpl; [by apply (HI k)|done]. Qed.

Lemma Inv_insert s now k e : Inv (s, now) → entry_ok now e → Inv (<[k:=e]> s, now).
Proof. intros HI He. apply (Inv_upd s now k (Some e)); done. Qed.
Lemma Inv_delete s now k : Inv (s, now) → Inv (delete k s, now).
Proof. intros HI. apply (Inv_upd s now k None); done. Qed.

Lemma Inv_advance s now t : Inv (s, now) → Inv (advance s t, t).
Proof.
  intros HI k e. simpl. rewrite advance_lookup. destruct (s !! k) as [e'|] eqn:E; [|done].
  unfold alive. destruct e' as [v [d|]]; simpl.
  - destruct (N.ltb_spec t d); [|done]. intros [= <-]. split; simpl; [|done]. by apply (HI k _ E).
  - intros [= <-]. split; simpl; [|done]. by apply (HI k _ E).
Qed.

Lemma Inv_mset s now kvs : Inv (s, now) → Inv (mset_all s kvs, now).
Proof.
  unfold mset_all. revert s. induction kvs as [|p kvs IH]; intros s HI; simpl; [done|].
  apply IH. apply Inv_insert; [done|]. split; done.
Qed.

Lemma Inv_del s now ks : Inv (s, now) → Inv ((del_all s ks).1, now).
Proof.
  unfold del_all. generalize 0. revert s. induction ks as [|k ks IH]; intros s n HI; simpl; [done|].
  destruct (is_some (s !! k)); apply IH; [by apply Inv_delete | done].
Qed.

Lemma Inv_rename s now a b nx : Inv (s, now) → Inv ((c_rename s a b nx).1, now).
Proof.
  intros HI. unfold c_rename. destruct (s !! a) as [e|] eqn:E; [|done].
  destruct (bool_decide (a = b)); [done|]. destruct (nx && is_some (s !! b)); [done|]. simpl.
  apply Inv_insert; [by apply Inv_delete | by apply (HI a)].
Qed.

Lemma nonempty_push_end tl (x : list N) l : value_nonempty (VList (push_end tl x l)) = true.
Proof. destruct tl; simpl; [done|]. by destruct l. Qed.

Lemma Inv_lmove s now a b fl tl : Inv (s, now) → Inv ((c_lmove s a b fl tl).1, now).
Proof.
  intros HI. unfold c_lmove. destruct (s !! a) as [[[] d]|] eqn:E; try done.
  destruct (pop_end fl _) as [[x r]|]; [|done].
  pose proof (HI a _ E) as [_ Hd]. simpl in Hd.
  destruct (bool_decide (a = b)).
  - simpl. apply Inv_insert; [done|]. split; [apply nonempty_push_end | done].
  - destruct (s !! b) as [[[] dd]|] eqn:Eb; try done; simpl.
    + apply Inv_insert; [apply Inv_upd; [done | by apply mk_ok]|].
      split; [apply nonempty_push_end | by apply (HI b _ Eb)].
    + apply Inv_insert; [apply Inv_upd; [done | by apply mk_ok]|]. split; done.
Qed.

Lemma Inv_exec dl s now c : Inv (s, now) → Inv ((exec dl s now c).1, now).
Proof.
  intros HI. unfold exec. destruct (cmd_reject dl c); [done|].
  unfold exec_wf. destruct (key_fun dl now c) as [[k f]|] eqn:K.
  - rewrite on_key_eq. apply Inv_upd; [done|]. by apply (key_fun_outcome dl now c k f _ K), Inv_lookup.
  - destruct c; try discriminate K; simpl; try done.
    + (* MSET *) by apply Inv_mset.
    + (* MSETNX *) destruct (existsb _ _); [done|]. by apply Inv_mset.
    + (* DEL *) pose proof (Inv_del s now ks HI). by destruct (del_all s ks).
    + (* RENAME *) by apply Inv_rename.
    + (* RENAMENX *) by apply Inv_rename.
    + (* RPOPLPUSH *) by apply Inv_lmove.
    + (* LMOVE *) by apply Inv_lmove.
Qed.

Lemma Inv_step dl st o : Inv st → Inv (step dl st o).
Proof.
  destruct st as [s now]. intros HI. destruct o; simpl; [by apply (Inv_advance s now) | by apply Inv_exec].
Qed.

Lemma Inv_run_from dl st ops : Inv st → Inv (run_from dl st ops).
Proof.
  unfold run_from. revert st. induction ops as [|o ops IH]; intros st HI; simpl; [done|].
  apply IH. by apply Inv_step.
Qed.

Theorem reach_inv_lemma : ∀ dl ops, Inv (run dl ops).
Proof. intros. apply Inv_run_from. intros k e. simpl. by rewrite lookup_empty. Qed.

Lemma value_nonempty_spec v :
  value_nonempty v = true ↔
  match v with
  | VStr _ => True
  | VList l => l ≠ []
  | VSet s => s ≠ ∅
  | VHash h => h ≠ ∅
  | VZSet z => z ≠ ∅
  end.
Proof.
  assert (∀ A (l : list A), match l with [] => false | _ => true end = true ↔ l ≠ []) as Hl
    by (by intros A []).
  destruct v; simpl; rewrite ?Hl; [done | done | | |].
  - by rewrite elements_empty_iff, leibniz_equiv_iff.
  - by rewrite map_to_list_empty_iff.
  - by rewrite map_to_list_empty_iff.
Qed.

Lemma mk_nonempty v d : value_nonempty v = true → mk v d = Some (v, d).
Proof. unfold mk. by intros ->. Qed.

Lemma lookup_insert_empty {A} (m m' : list N) (v : A) :
  <[m:=v]> (∅ : gmap (list N) A) !! m' = if bool_decide (m' = m) then Some v else None.
Proof.
  case_bool_decide as E; [subst; apply lookup_insert | by rewrite lookup_insert_ne, lookup_empty].
Qed.

Lemma exec_lookup dl s now c k f : cmd_reject dl c = None → key_fun dl now c = Some (k, f) →
  (exec dl s now c).1 !! k = (f (s !! k)).1.
Proof. unfold exec, exec_wf. intros -> ->. rewrite on_key_eq. apply upd_lookup. Qed.
Lemma exec_reply dl s now c k f : cmd_reject dl c = None → key_fun dl now c = Some (k, f) →
  (exec dl s now c).2 = (f (s !! k)).2.
Proof. unfold exec, exec_wf. intros -> ->. by rewrite on_key_eq. Qed.

Definition agree_on (ks : list (list N)) (s1 s2 : gmap (list N) (value * option N)) : Prop :=
  ∀ k, k ∈ ks → s1 !! k = s2 !! k.

Lemma agree_upd K s1 s2 a oe : agree_on K s1 s2 → agree_on K (upd s1 a oe) (upd s2 a oe).
Proof.
  intros H k Hk. destruct (decide (a = k)) as [->|].
  - by rewrite !upd_lookup.
  - rewrite !upd_lookup_ne by done. by apply H.
Qed.
Lemma agree_insert K s1 s2 a e : agree_on K s1 s2 → agree_on K (<[a:=e]> s1) (<[a:=e]> s2).
Proof. apply (agree_upd K s1 s2 a (Some e)). Qed.
Lemma agree_delete K s1 s2 a : agree_on K s1 s2 → agree_on K (delete a s1) (delete a s2).
Proof. apply (agree_upd K s1 s2 a None). Qed.

Definition local_on (ks : list (list N))
    (g : state → state * reply) : Prop :=
  ∀ s1 s2, agree_on ks s1 s2 →
    (g s1).2 = (g s2).2 ∧ agree_on ks (g s1).1 (g s2).1 ∧ ∀ k, k ∉ ks → (g s1).1 !! k = s1 !! k.

(* the three conjuncts of [local_on] for a branch that returns the state as it is *)
Lemma local_same ks s1 s2 (r : reply) : agree_on ks s1 s2 →
  (s1, r).2 = (s2, r).2 ∧ agree_on ks (s1, r).1 (s2, r).1 ∧ ∀ k, k ∉ ks → (s1, r).1 !! k = s1 !! k.
Proof. done. Qed.

Lemma on_key_local k f : local_on [k] (λ s, on_key s k f).
Proof.
  intros s1 s2 Ha. rewrite !on_key_eq, <- (Ha k) by left. simpl.
  split; [done|]. split; [by apply agree_upd|].
  intros k' Hk'. apply upd_lookup_ne. intros ->. apply Hk'. left.
Qed.

Lemma agree_mset K s1 s2 kvs : agree_on K s1 s2 → agree_on K (mset_all s1 kvs) (mset_all s2 kvs).
Proof.
  unfold mset_all. revert s1 s2. induction kvs as [|p kvs IH]; intros s1 s2 H; simpl; [done|].
  apply IH. by apply agree_insert.
Qed.
Lemma mset_frame s kvs k : k ∉ kvs.*1 → mset_all s kvs !! k = s !! k.
Proof.
  unfold mset_all. revert s. induction kvs as [|p kvs IH]; intros s H; simpl; [done|].
  rewrite fmap_cons, not_elem_of_cons in H. destruct H as [H1 H2].
  rewrite IH by done. by rewrite lookup_insert_ne.
Qed.
Lemma mset_local kvs r : local_on kvs.*1 (λ s, (mset_all s kvs, r)).
Proof.
  intros s1 s2 Ha. split; [done|]. split; [by apply agree_mset|]. intros k. apply mset_frame.
Qed.

Lemma exists_any_local s1 s2 (kvs : list (list N * list N)) : agree_on kvs.*1 s1 s2 →
  existsb (λ p, is_some (s1 !! p.1)) kvs = existsb (λ p, is_some (s2 !! p.1)) kvs.
Proof.
  induction kvs as [|p kvs IH]; intros H; simpl; [done|].
  rewrite (H p.1) by (rewrite fmap_cons; left). f_equal. apply IH.
  intros k Hk. apply H. rewrite fmap_cons. by right.
Qed.

Lemma del_local K ks : (∀ k, k ∈ ks → k ∈ K) → ∀ s1 s2, agree_on K s1 s2 →
  (del_all s1 ks).2 = (del_all s2 ks).2 ∧ agree_on K (del_all s1 ks).1 (del_all s2 ks).1.
Proof.
  unfold del_all. generalize 0. induction ks as [|k ks IH]; intros n Hsub s1 s2 H; simpl; [done|].
  rewrite <- (H k) by (apply Hsub; left).
  destruct (is_some (s1 !! k)); apply IH; try done; try (by apply agree_delete).
  all: intros; apply Hsub; by right.
Qed.
Lemma del_frame ks s k : k ∉ ks → (del_all s ks).1 !! k = s !! k.
Proof.
  unfold del_all. generalize 0. revert s. induction ks as [|a ks IH]; intros s n H; simpl; [done|].
  rewrite not_elem_of_cons in H. destruct H as [H1 H2].
  destruct (is_some (s !! a)); rewrite IH by done; [by rewrite lookup_delete_ne | done].
Qed.

Lemma del_local_on ks : local_on ks (λ s, let '(s', n) := del_all s ks in (s', RInt n)).
Proof.
  intros s1 s2 Ha. destruct (del_local ks ks (λ _, id) s1 s2 Ha) as [H1 H2].
  pose proof (del_frame ks s1) as H3.
  destruct (del_all s1 ks), (del_all s2 ks). simpl in *. by rewrite H1.
Qed.

Lemma count_local s1 s2 ks : agree_on ks s1 s2 → count_existing s1 ks = count_existing s2 ks.
Proof.
  unfold count_existing, zlen. intros H. f_equal. f_equal.
  induction ks as [|k ks IH]; [done|].
  rewrite !filter_cons. rewrite <- (H k) by left.
  rewrite IH; [done|]. intros k' Hk'. apply H. by right.
Qed.

Lemma not_elem_of_pair {A} (k a b : A) : k ∉ [a; b] → k ≠ a ∧ k ≠ b.
Proof. rewrite !not_elem_of_cons. tauto. Qed.

Lemma rename_local a b nx : local_on [a; b] (λ s, c_rename s a b nx).
Proof.
  intros s1 s2 H. unfold c_rename. rewrite <- (H a), <- (H b) by (by repeat constructor).
  destruct (s1 !! a); [|by apply local_same]. destruct (bool_decide (a = b)); [by apply local_same|].
  destruct (nx && is_some (s1 !! b)); [by apply local_same|].
  split; [done|]. split; [apply agree_insert, agree_delete, H|].
  intros k [Ha Hb]%not_elem_of_pair. simpl. by rewrite lookup_insert_ne, lookup_delete_ne.
Qed.

Lemma lmove_local a b fl tl : local_on [a; b] (λ s, c_lmove s a b fl tl).
Proof.
  intros s1 s2 H. unfold c_lmove. rewrite <- (H a), <- (H b) by (by repeat constructor).
  destruct (s1 !! a) as [[[] d]|]; try (by apply local_same).
  destruct (pop_end fl _) as [[x r]|]; [|by apply local_same].
  destruct (bool_decide (a = b)).
  - split; [done|]. split; [by apply agree_insert|].
    intros k [Ha _]%not_elem_of_pair. by apply lookup_insert_ne.
  - destruct (s1 !! b) as [[[] dd]|]; try (by apply local_same).
    all: split; [done|]; split; [apply agree_insert, agree_upd, H|].
    all: intros k [Ha Hb]%not_elem_of_pair; simpl; by rewrite lookup_insert_ne, upd_lookup_ne.
Qed.

Lemma cmd_keys_single dl now c k f : key_fun dl now c = Some (k, f) → cmd_keys c = Some [k].
Proof.
  revert k f. apply (key_fun_case dl now c (λ k _, cmd_keys c = Some [k])).
  destruct c; done.
Qed.

Theorem key_local_lemma dl c ks now : cmd_keys c = Some ks → local_on ks (λ s, exec dl s now c).
Proof.
  intros Hks. unfold exec. destruct (cmd_reject dl c); [done|].
  unfold exec_wf. destruct (key_fun dl now c) as [[k f]|] eqn:K.
  - rewrite (cmd_keys_single _ _ _ _ _ K) in Hks. injection Hks as <-. apply on_key_local.
  - destruct c; try discriminate K; try discriminate Hks; injection Hks as <-; simpl.
    + (* MGET *) intros s1 s2 Ha. split; [|done]. simpl. f_equal. apply map_ext_in. intros k Hk.
      unfold mget_one. rewrite (Ha k); [done|]. by apply elem_of_list_In.
    + (* MSET *) apply mset_local.
    + (* MSETNX *) intros s1 s2 Ha. rewrite <- (exists_any_local s1 s2 kvs Ha).
      destruct (existsb _ kvs); [done|]. by apply mset_local.
    + (* DEL *) apply del_local_on.
    + (* EXISTS *) intros s1 s2 Ha. split; [|done]. simpl. f_equal. by apply count_local.
    + (* RENAME *) apply rename_local.
    + (* RENAMENX *) apply rename_local.
    + (* RPOPLPUSH *) apply lmove_local.
    + (* LMOVE *) apply lmove_local.
Qed.

Lemma getrange_nil dl a b : getrange dl [] a b = [].
Proof. unfold getrange. simpl. rewrite orb_true_r. by destruct dl; [destruct (_ && _)|]. Qed.

Theorem dialect_eq_outside_class_lemma : ∀ s now c,
  known_dev s c = false → exec AsBuilt s now c = exec Redis s now c.
Proof.
  intros s now c H. destruct c; try reflexivity; unfold exec, exec_wf; simpl in *.
  - (* SET NX XX *) by rewrite H.
  - (* GETSET *) unfold on_key, c_getset. destruct (s !! k) as [[[] [d|]]|]; simpl in *; done.
  - (* GETRANGE *) unfold on_key, c_getrange. destruct (s !! k) as [[[[|x r]| | | |] d]|]; try done.
    + by rewrite !getrange_nil.
    + unfold getrange. simpl in H. by rewrite H.
  - (* EXPIRE, PEXPIRE with NX/XX/GT/LT combined *) by rewrite H.
  - by rewrite H.
Qed.

(* the states of the two witnesses in Props/C01.v that inside the class the dialects differ (known
   findings C01-getset-keeps-ttl, C01-getrange-negative-order) *)
Definition dev_getset_state : gmap (list N) (value * option N) := {[ [97%N] := (VStr [120%N], Some 1000%N) ]}.
Definition dev_getrange_state : gmap (list N) (value * option N) := {[ [97%N] := (VStr [49%N], None) ]}.

Lemma lrange_lookup_lemma {A} (l : list A) (a b : Z) (i : nat) :
  let len := zlen l in
  let S := if a <? 0 then Z.max (len + a) 0 else a in
  let E := Z.min (if b <? 0 then len + b else b) (len - 1) in
  lrange l a b !! i = if S + Z.of_nat i <=? E then l !! Z.to_nat (S + Z.of_nat i) else None.
Proof.
  intros len S E. unfold lrange, norm_range. fold len. fold S. fold E.
  assert (0 <= len) by (unfold len, zlen; lia).
  assert (0 <= S) by (unfold S; destruct (a <? 0) eqn:?; lia).
  destruct ((S >? E) || (S >=? len)) eqn:C.
  - rewrite lookup_nil. destruct (Z.leb_spec (S + Z.of_nat i) E); [|done].
    apply orb_true_iff in C as [C|C]; [lia|].
    assert (len <= S) by lia. assert (E <= len - 1) by (unfold E; lia). lia.
  - apply orb_false_iff in C as [C1 C2].
    destruct (Z.leb_spec (S + Z.of_nat i) E).
    + rewrite lookup_take by lia. rewrite lookup_drop. f_equal. lia.
    + rewrite lookup_take_ge by lia. done.
Qed.

Lemma lrange_all_lemma {A} (l : list A) : lrange l 0 (-1) = l.
Proof.
  apply list_eq. intros i. rewrite lrange_lookup_lemma. simpl.
  assert (zlen l = Z.of_nat (List.length l)) as E by done.
  destruct (Z.leb_spec (0 + Z.of_nat i) (Z.min (zlen l + -1) (zlen l - 1))).
  - f_equal. lia.
  - symmetry. apply lookup_ge_None. unfold length. lia.
Qed.

Lemma lindex_lrange_lemma (l : list (list N)) (i : Z) : lindex l i = head (lrange l i i).
Proof.
  rewrite head_lookup, lrange_lookup_lemma. unfold lindex, norm_index.
  change (Z.of_nat 0) with 0. rewrite !Z.add_0_r.
  set (len := zlen l). set (j := if i <? 0 then len + i else i).
  (* LRANGE starts at [max j 0]: it selects nothing if [j < 0], and position [j] if [j < len] *)
  replace (if i <? 0 then Z.max (len + i) 0 else i) with (Z.max j 0)
    by (unfold j; destruct (Z.ltb_spec i 0); lia).
  destruct (Z.ltb_spec j 0), (Z.geb_spec j len), (Z.leb_spec (Z.max j 0) (Z.min j (len - 1)));
    simpl; try lia; try done.
  by rewrite Z.max_l.
Qed.

Lemma ltrim_keeps_lrange_lemma l d a b :
  (c_ltrim a b (Some (VList l, d))).1 = mk (VList (lrange l a b)) d ∧
  (c_lrange a b (Some (VList l, d))).2 = RArr (map RB (lrange l a b)).
Proof. done. Qed.

(* only for non-negative indices: GETRANGE clamps a negative index (counted from the end) to 0
   at both ends, LRANGE only at the start *)
Lemma getrange_nonneg_lemma dl (s : list N) a b : 0 <= a → 0 <= b → getrange dl s a b = lrange s a b.
Proof.
  intros Ha Hb. unfold getrange, lrange, norm_range. set (len := zlen s).
  rewrite (proj2 (Z.ltb_ge a 0) Ha), (proj2 (Z.ltb_ge b 0) Hb), !Z.max_l by done.
  replace (match dl with Redis => _ | AsBuilt => false end) with false by (by destruct dl).
  (* both clamp the end to [len - 1]; if the range is not empty then [a < len], so [len] is not 0 *)
  replace (if b >=? len then len - 1 else b) with (Z.min b (len - 1)) by (destruct (Z.geb_spec b len); lia).
  destruct (Z.gtb_spec a (Z.min b (len - 1))); [done|].
  replace (len =? 0) with false by (symmetry; apply Z.eqb_neq; lia).
  replace (a >=? len) with false by (symmetry; rewrite Z.geb_leb; apply Z.leb_gt; lia).
  done.
Qed.

Lemma incrby_missing_lemma z : c_incrby z None = (Some (VStr (fmt_Z z), None), RInt z).
Proof. reflexivity. Qed.

Definition ex_ops : list op :=
  [ OCmd (SetC [107%N] [49%N; 48%N] (XPx 100) false false false);   (* SET k 10 PX 100 *)
    OCmd (Incr [107%N]);                                               (* INCR k -> 11 *)
    OCmd (RPush [108%N] [[97%N]; [98%N]]);                             (* RPUSH l a b *)
    OTick 99%N;
    OCmd (LPop [108%N]);
    OCmd (LPop [108%N]);                                               (* list becomes empty *)
    OTick 100%N ].                                                     (* k expires *)

