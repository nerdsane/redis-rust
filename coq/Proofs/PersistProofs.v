(* C12: the store-level invariant [Inv] of flush and compaction under every fault script and
   crash point.  A flush or compaction touches only names the current manifest does not
   refer to until its rename installs a manifest that is [Good] for the store; the walk
   through [compact] is done once for store predicates, for any with a frame rule and an
   install rule ([compact_steps]), and serves C13 as well; [compact_crashed] walks it once
   more for the crash flag. *)
From stdpp Require Import gmap.
From Coq Require Import NArith Lia.
From RV Require Import Lib.ListFacts Model.Crdt Model.Store Model.Persist.
Local Open Scope N_scope.

Lemma st_get_spec (w w' : world obj) n r :
  st_get w n = (w', r) →
  w_store w' = w_store w ∧
  (r = RCrash ∨ r = RErr ∨ r = ROk (w_store w !! n) ∨ r = ROk (garble (w_store w !! n))) ∧
  (r = RCrash → w_crashed w' = true) ∧ (w_crashed w = true → w_crashed w' = true).
Proof.
  unfold st_get. destruct (w_io w) as [|[|[]] io]; intros [= <- <-]; simpl;
    repeat split; auto; try discriminate.
Qed.

Lemma st_put_spec (w w' : world obj) n o r :
  st_put w n o = (w', r) →
  (∀ k, k ≠ n → w_store w' !! k = w_store w !! k) ∧
  (r = ROk tt → w_store w' !! n = Some (Whole o)) ∧
  (r = RCrash → w_store w' = w_store w ∧ w_crashed w' = true) ∧
  (w_crashed w = true → w_crashed w' = true).
Proof.
  unfold st_put. destruct (w_io w) as [|[|[]] io]; intros [= <- <-]; simpl;
    repeat split; auto; try discriminate; intros; rewrite ?lookup_insert_ne by done;
    rewrite ?lookup_insert; done.
Qed.

Lemma st_rename_spec (w w' : world obj) a b r :
  st_rename w a b = (w', r) →
  (r = ROk tt → ∃ x, w_store w !! a = Some x ∧ w_store w' = <[b := x]> (delete a (w_store w))) ∧
  (r ≠ ROk tt → w_store w' = w_store w) ∧
  (r = RCrash → w_crashed w' = true) ∧ (w_crashed w = true → w_crashed w' = true).
Proof.
  unfold st_rename. destruct (w_io w) as [|[|e] io].
  - intros [= <- <-]; simpl. repeat split; auto; discriminate.
  - destruct (w_store w !! a) as [x|] eqn:Ha; intros [= <- <-]; simpl;
      repeat split; auto; try discriminate; try congruence. eauto.
  - intros [= <- <-]; simpl. repeat split; auto; discriminate.
Qed.

Lemma st_delete_spec (w w' : world obj) n r :
  st_delete w n = (w', r) →
  (∀ k, k ≠ n → w_store w' !! k = w_store w !! k) ∧
  (r = RCrash → w_crashed w' = true) ∧ (w_crashed w = true → w_crashed w' = true).
Proof.
  unfold st_delete. destruct (w_io w) as [|[|e] io]; intros [= <- <-]; simpl;
    repeat split; auto; try discriminate. intros. by rewrite lookup_delete_ne.
Qed.

Lemma load_or_create_spec (w w' : world obj) rid r :
  load_or_create w rid = (w', r) →
  w_store w' = w_store w ∧
  (∀ m, r = ROk m → cur_manifest (w_store w) rid = Some m) ∧
  (r = RCrash → w_crashed w' = true) ∧ (w_crashed w = true → w_crashed w' = true).
Proof.
  unfold load_or_create. destruct (st_get w NMan) as [w1 g] eqn:Hg.
  apply st_get_spec in Hg as (Hs & Hr & Hc & Hm). unfold cur_manifest.
  (* a garbled read never yields [Whole _]: a manifest comes back only from a clean read of
     the stored object, or as the new manifest when nothing is stored *)
  assert (Hclean : ∀ x, g = ROk x → x ≠ Some Torn → x = w_store w !! NMan).
  { intros x ->. destruct Hr as [Hr|[Hr|[Hr|Hr]]]; try discriminate; injection Hr as ->; [done|].
    by destruct (w_store w !! NMan). }
  destruct g as [[[[]|]|]| |]; intros [= <- <-]; repeat split; auto; try discriminate;
    intros m' [= <-]; by rewrite <- (Hclean _ eq_refl).
Qed.

Lemma save_spec (w w' : world obj) m r :
  save w m = (w', r) →
  (∀ k, k ≠ NTmp → k ≠ NMan → w_store w' !! k = w_store w !! k) ∧
  (r = ROk tt → w_store w' !! NMan = Some (Whole (OMan m))) ∧
  (r ≠ ROk tt → ∀ k, k ≠ NTmp → w_store w' !! k = w_store w !! k) ∧
  (r = RCrash → w_crashed w' = true) ∧ (w_crashed w = true → w_crashed w' = true).
Proof.
  unfold save. destruct (st_put w NTmp (OMan m)) as [w1 r1] eqn:Hp.
  apply st_put_spec in Hp as (Hk & Hok & Hcr & Hm).
  destruct r1 as [[]| |].
  - intros Hr. apply st_rename_spec in Hr as (Hrok & Hrne & Hrc & Hrm).
    specialize (Hok eq_refl). destruct r as [[]| |].
    2,3: rewrite (Hrne ltac:(discriminate)); repeat split; auto; discriminate.
    destruct (Hrok eq_refl) as (x & Hx & Hst). rewrite Hst. repeat split; auto; try done.
    + intros k H1 H2. rewrite lookup_insert_ne, lookup_delete_ne by done. by apply Hk.
    + intros _. rewrite lookup_insert. congruence.
  - intros [= <- <-]. repeat split; auto; discriminate.
  - intros [= <- <-]. repeat split; auto; try discriminate. intros _. by apply Hcr.
Qed.

Lemma in_insert_seg x l s : In s (insert_seg x l) ↔ In s (x :: l).
Proof.
  induction l as [|y l IH]; simpl; [done|].
  destruct (si_id y <? si_id x); simpl; rewrite ?IH; simpl; tauto.
Qed.

Lemma in_insert_by {A} (f : A → N) x l y : In y (insert_by f x l) ↔ In y (x :: l).
Proof.
  induction l as [|z l IH]; simpl; [done|].
  destruct (f x <? f z); simpl; rewrite ?IH; simpl; tauto.
Qed.
Lemma in_sort_by {A} (f : A → N) l y : In y (sort_by f l) ↔ In y l.
Proof.
  unfold sort_by. assert (H : ∀ acc, In y (fold_left (λ a x, insert_by f x a) l acc) ↔ In y acc ∨ In y l).
  { induction l as [|x l IH]; intros acc; simpl; [tauto|].
    rewrite IH, in_insert_by. simpl. tauto. }
  rewrite H. simpl. tauto.
Qed.

Lemma in_filter {A} (P : A → Prop) `{∀ x, Decision (P x)} l x : In x (filter P l) ↔ P x ∧ In x l.
Proof. by rewrite <- !elem_of_list_In, elem_of_list_filter. Qed.

Lemma in_map_congr {A B} (f : A → B) l l' :
  (∀ x, In x l ↔ In x l') → ∀ y, In y (map f l) ↔ In y (map f l').
Proof. intros H y. rewrite !in_map_iff. by setoid_rewrite H. Qed.

Lemma man_good_seg st m s : man_good st m → In s (m_segs m) → seg_ok st m s.
Proof. intros [Hf _] Hs. rewrite Forall_forall in Hf. by apply Hf, elem_of_list_In. Qed.

Lemma man_good_ck st m ci : man_good st m → m_ck m = Some ci →
  ci_last ci < m_next m ∧ (∃ i, ci_key ci = NCk i) ∧ ∃ kvs, st !! ci_key ci = Some (Whole (OCk kvs)).
Proof. intros [_ Hc] Hci. unfold ck_ok in Hc. by rewrite Hci in Hc. Qed.

Definition agree_on (m : manifest) (st st' : gmap name (sobj obj)) : Prop :=
  (∀ s, In s (m_segs m) → st' !! si_key s = st !! si_key s) ∧
  (∀ ci, m_ck m = Some ci → st' !! ci_key ci = st !! ci_key ci).

Lemma agree_on_frame st st' m :
  man_good st m →
  (∀ k, (k = NTmp ∨ ∃ i, k = NSeg i ∧ m_next m <= i) ∨ st' !! k = st !! k) →
  agree_on m st st'.
Proof.
  intros Hg Hf. split.
  - intros s Hin. destruct (man_good_seg _ _ _ Hg Hin) as (Hk & Hlt & _).
    destruct (Hf (si_key s)) as [[H|(i & H & Hi)]|H]; try done; rewrite Hk in H; try discriminate.
    injection H as <-. lia.
  - intros ci Hci. destruct (man_good_ck _ _ _ Hg Hci) as (_ & (i & Hk) & _).
    destruct (Hf (ci_key ci)) as [[H|(j & H & _)]|H]; try done; rewrite Hk in H; discriminate.
Qed.

Lemma man_good_agree st st' m : agree_on m st st' → man_good st m → man_good st' m.
Proof.
  intros [Ha Hb] Hg. split.
  - rewrite Forall_forall. intros s Hin%elem_of_list_In.
    destruct (man_good_seg _ _ _ Hg Hin) as (H1 & H2 & ds & H3).
    repeat split; auto. exists ds. by rewrite Ha.
  - unfold ck_ok. destruct (m_ck m) as [ci|] eqn:Hci; [|done].
    destruct (man_good_ck _ _ _ Hg Hci) as (H1 & H2 & kvs & H3).
    repeat split; auto. exists kvs. by rewrite (Hb ci).
Qed.

Definition framed (st st' : gmap name (sobj obj)) : Prop :=
  st' !! NMan = st !! NMan ∧
  ∀ rid m, cur_manifest st rid = Some m →
    ∀ k, (k = NTmp ∨ ∃ i, k = NSeg i ∧ m_next m <= i) ∨ st' !! k = st !! k.

Section inv.
  Variable cov : delta → delta → Prop.

  Definition vis (m : manifest) (s : seginfo) : Prop :=
    match m_ck m with None => True | Some ci => ci_last ci < si_id s end.
  Definition covered (st : gmap name (sobj obj)) (m : manifest) (d : delta) : Prop :=
    ∃ s ds d', In s (m_segs m) ∧ vis m s ∧ st !! si_key s = Some (Whole (OSeg ds)) ∧
               In d' ds ∧ cov d' d.
  Definition Good (st : gmap name (sobj obj)) (m : manifest) (conf : list delta) : Prop :=
    man_good st m ∧ ∀ d, In d conf → covered st m d.
  Definition Inv (st : gmap name (sobj obj)) (conf : list delta) : Prop :=
    ∀ rid, ∃ m, cur_manifest st rid = Some m ∧ Good st m conf.

  Lemma good_agree st st' m conf : agree_on m st st' → Good st m conf → Good st' m conf.
  Proof.
    intros Ha [Hg Hc]. split; [by eapply man_good_agree|].
    intros d Hd. destruct (Hc d Hd) as (s & ds & d' & H1 & H2 & H3 & H4 & H5).
    exists s, ds, d'. repeat split; auto. destruct Ha as [Ha _]. by rewrite Ha.
  Qed.

  Lemma inv_frame st st' conf : framed st st' → Inv st conf → Inv st' conf.
  Proof.
    intros [Hm Hf] HI rid. destruct (HI rid) as (m & Hc & Hg). exists m. split.
    - unfold cur_manifest in *. by rewrite Hm.
    - eapply good_agree; [|done]. apply agree_on_frame; [apply Hg|]. by apply (Hf rid).
  Qed.

  Lemma inv_install st m conf :
    st !! NMan = Some (Whole (OMan m)) → Good st m conf → Inv st conf.
  Proof. intros Hm Hg rid. exists m. unfold cur_manifest. by rewrite Hm. Qed.

  Lemma inv_cur st conf rid m : Inv st conf → cur_manifest st rid = Some m → Good st m conf.
  Proof. intros HI Hc. destruct (HI rid) as (m' & Hc' & Hg). congruence. Qed.
End inv.

Lemma store_ok_inv cov st : store_ok st → Inv cov st [].
Proof.
  intros H rid. destruct (H rid) as (m & Hc & Hg). exists m. split; [done|]. split; [done|].
  intros ? [].
Qed.
Lemma inv_store_ok cov st conf : Inv cov st conf → store_ok st.
Proof. intros H rid. destruct (H rid) as (m & Hc & Hg & _). eauto. Qed.

Lemma cur_manifest_rid st r1 r2 m1 m2 :
  cur_manifest st r1 = Some m1 → cur_manifest st r2 = Some m2 →
  m_segs m1 = m_segs m2 ∧ m_ck m1 = m_ck m2 ∧ m_next m1 = m_next m2.
Proof.
  unfold cur_manifest. destruct (st !! NMan) as [[[]|]|]; intros [= <-] [= <-]; auto.
Qed.

(* until its rename a flush or compaction writes only under the temp manifest's name and the
   first unallocated segment name *)
Lemma fresh_frame (st st' : gmap name (sobj obj)) rid0 m0 :
  cur_manifest st rid0 = Some m0 →
  (∀ k, k ≠ NTmp → k ≠ NSeg (m_next m0) → st' !! k = st !! k) → framed st st'.
Proof.
  intros Hm Hoff. split; [by apply Hoff|].
  intros rid m Hc k. destruct (decide (k = NTmp)) as [->|H1]; [by left; left|].
  destruct (decide (k = NSeg (m_next m0))) as [->|H2]; [|right; by apply Hoff].
  left. right. exists (m_next m0). split; [done|].
  destruct (cur_manifest_rid _ _ _ _ _ Hc Hm) as (_ & _ & ->). lia.
Qed.

Lemma seg_deltas_id st m s s' :
  man_good st m → In s (m_segs m) → In s' (m_segs m) → si_id s' = si_id s →
  seg_deltas st s' = seg_deltas st s.
Proof.
  intros Hg Hs Hs' Hid. destruct (man_good_seg _ _ _ Hg Hs) as (K & _).
  destruct (man_good_seg _ _ _ Hg Hs') as (K' & _). unfold seg_deltas. by rewrite K, K', Hid.
Qed.

(* The manifest swap of a compaction: [st'] holds the manifest [m'], which lists [xs] (no
   segment, or one new segment holding [out]) in place of the segments [sel] of [m]; whatever
   else [m] refers to is as it was in [st]. *)
Record swapped (st st' : gmap name (sobj obj)) (m m' : manifest) (sel xs : list seginfo)
    (out : list delta) : Prop := {
  sw_man : st' !! NMan = Some (Whole (OMan m'));
  sw_ck : m_ck m' = m_ck m;
  sw_next : m_next m <= m_next m';
  sw_segs : ∀ s, In s (m_segs m') ↔ In s xs ∨ (In s (m_segs m) ∧ ¬ In (si_id s) (map si_id sel));
  sw_keep : ∀ s, In s (m_segs m) → ¬ In (si_id s) (map si_id sel) → st' !! si_key s = st !! si_key s;
  sw_ckk : ∀ ci, m_ck m = Some ci → st' !! ci_key ci = st !! ci_key ci;
  sw_new : ∀ x, In x xs → si_key x = NSeg (si_id x) ∧ si_id x < m_next m' ∧ m_next m <= si_id x ∧
                          st' !! si_key x = Some (Whole (OSeg out));
  sw_shape : (xs = [] ∧ out = []) ∨ (∃ x, xs = [x] ∧ out ≠ [])
}.

(* It is enough that the stores differ at most under the two manifest names, the first
   unallocated segment name and the names of the inputs. *)
Lemma swapped_intro st st' m m' sel xs out :
  man_good st m → (∀ s, In s sel → In s (m_segs m)) →
  (∀ k, k ≠ NTmp → k ≠ NMan → k ≠ NSeg (m_next m) → ¬ In k (map si_key sel) → st' !! k = st !! k) →
  st' !! NMan = Some (Whole (OMan m')) → m_ck m' = m_ck m → m_next m <= m_next m' →
  (∀ s, In s (m_segs m') ↔ In s xs ∨ (In s (m_segs m) ∧ ¬ In (si_id s) (map si_id sel))) →
  (∀ x, In x xs → si_key x = NSeg (si_id x) ∧ si_id x < m_next m' ∧ m_next m <= si_id x ∧
                  st' !! si_key x = Some (Whole (OSeg out))) →
  (xs = [] ∧ out = []) ∨ (∃ x, xs = [x] ∧ out ≠ []) →
  swapped st st' m m' sel xs out.
Proof.
  intros Hg Hsel Hoff HM Hck Hnx Hin Hnew Hsh. split; try done.
  - intros s Hs Hni. destruct (man_good_seg _ _ _ Hg Hs) as (Hk & Hlt & _).
    apply Hoff; rewrite Hk; try discriminate.
    + intros [= E]. lia.
    + intros (s' & Hk' & Hs')%in_map_iff.
      destruct (man_good_seg _ _ _ Hg (Hsel s' Hs')) as (Hk'' & _).
      apply Hni, in_map_iff. exists s'. split; [congruence|done].
  - intros ci Hci. destruct (man_good_ck _ _ _ Hg Hci) as (_ & (i & Hi) & _).
    apply Hoff; rewrite Hi; try discriminate.
    intros (s' & Hk' & Hs')%in_map_iff.
    destruct (man_good_seg _ _ _ Hg (Hsel s' Hs')) as (Hk'' & _). congruence.
Qed.

Lemma man_good_swapped st st' m m' sel xs out :
  man_good st m → swapped st st' m m' sel xs out → man_good st' m'.
Proof.
  intros Hg [_ Hck Hnx Hin Hkeep Hckk Hnew _]. split.
  - rewrite Forall_forall. intros s Hs%elem_of_list_In. apply Hin in Hs as [Hx|[Hs Hni]].
    + destruct (Hnew s Hx) as (H1 & H2 & _ & H4). repeat split; eauto.
    + destruct (man_good_seg _ _ _ Hg Hs) as (H1 & H2 & ds & H3).
      repeat split; [done|lia|]. exists ds. by rewrite Hkeep.
  - unfold ck_ok. rewrite Hck. destruct (m_ck m) as [ci|] eqn:Hci; [|done].
    destruct (man_good_ck _ _ _ Hg Hci) as (H1 & H2 & kvs & H3).
    repeat split; [lia|done|]. exists kvs. by rewrite (Hckk ci).
Qed.

Section swap.
  Variable cov : delta → delta → Prop.

  Lemma good_swapped st st' m m' conf sel xs out :
    Good cov st m conf → (∀ s, In s sel → In s (m_segs m)) →
    swapped st st' m m' sel xs out →
    (∀ d' d, In d' (flat_map (seg_deltas st) sel) → In d conf → cov d' d →
             ∃ d'', In d'' out ∧ cov d'' d) →
    Good cov st' m' conf.
  Proof.
    intros [Hg Hcov] Hsel Hsw Hrep. split; [by eapply man_good_swapped|].
    destruct Hsw as [_ Hck _ Hin Hkeep _ Hnew Hsh].
    intros d Hd. destruct (Hcov d Hd) as (s & ds & d' & H1 & H2 & H3 & H4 & H5).
    destruct (in_dec N.eq_dec (si_id s) (map si_id sel)) as [Hi|Hi].
    - (* [s] was an input: the new segment covers [d] *)
      apply in_map_iff in Hi as (s' & Hid & Hs').
      assert (Hd' : In d' (flat_map (seg_deltas st) sel)).
      { apply in_flat_map. exists s'. split; [done|].
        rewrite (seg_deltas_id st m s s' Hg H1 (Hsel s' Hs') Hid). unfold seg_deltas. by rewrite H3. }
      destruct (Hrep d' d Hd' Hd H5) as (d'' & Hd'' & Hc'').
      destruct Hsh as [[_ ->]|(x & -> & _)]; [destruct Hd''|].
      destruct (Hnew x (or_introl eq_refl)) as (_ & _ & K3 & K4).
      exists x, out, d''. split; [apply Hin; left; by left|]. split; [|done].
      unfold vis. rewrite Hck. destruct (m_ck m) as [ci|] eqn:Hci; [|done].
      destruct (man_good_ck _ _ _ Hg Hci) as [? _]. lia.
    - exists s, ds, d'. split; [apply Hin; auto|]. split; [unfold vis in *; by rewrite Hck|].
      split; [by rewrite Hkeep|done].
  Qed.

  Lemma good_confirm st m conf x ds :
    (∀ d, cov d d) → Good cov st m conf →
    In x (m_segs m) → vis m x → st !! si_key x = Some (Whole (OSeg ds)) →
    Good cov st m (conf ++ ds).
  Proof.
    intros Hrefl [Hg Hc] Hx Hv Ho. split; [done|].
    intros d [Hd|Hd]%in_app_or; [auto|]. exists x, ds, d. auto.
  Qed.
End swap.

Definition confirmed_by (p : pstate) (r : fres) : list delta :=
  match r with FOk _ => ps_buf p | _ => [] end.
Definition flush_pstate (v : variant) (p : pstate) (r : fres) : pstate :=
  let taken := PState (ps_rid p) [] 0 (ps_conf p) (ps_acc p) in
  match ps_buf p, r with
  | [], _ => p
  | _, FOk _ => PState (ps_rid p) [] 0 (ps_conf p ++ ps_buf p) (ps_acc p)
  | _, FErr => if v_restore v then p else taken
  | _, _ => taken
  end.

Lemma flush_state v p sz (w : world obj) p' w' r :
  flush v p sz w = (p', w', r) →
  p' = flush_pstate v p r ∧
  (w_crashed w = true → w_crashed w' = true) ∧ (r = FCrash → w_crashed w' = true).
Proof.
  unfold flush, flush_pstate. destruct (ps_buf p). { by intros [= <- <- <-]. }
  destruct (load_or_create w (ps_rid p)) as [w1 r1] eqn:Hl.
  apply load_or_create_spec in Hl as (_ & _ & C1 & M1).
  destruct r1 as [m| |]; [|by intros [= <- <- <-]|intros [= <- <- <-]; auto].
  unfold alloc_id. destruct (negb (man_ok _)). { by intros [= <- <- <-]. }
  destruct (st_put w1 _ _) as [w2 r2] eqn:Hp. apply st_put_spec in Hp as (_ & _ & C2 & M2).
  destruct r2 as [[]| |].
  2,3: intros [= <- <- <-]; repeat split; [auto|]; try done; intros _; by apply C2.
  destruct (negb (man_ok _)). { intros [= <- <- <-]. repeat split; [auto|done]. }
  destruct (save w2 _) as [w3 r3] eqn:Hs. apply save_spec in Hs as (_ & _ & _ & C3 & M3).
  destruct r3 as [[]| |]; intros [= <- <- <-]; repeat split; auto; done.
Qed.

Lemma flush_conf v p sz (w : world obj) p' w' r :
  flush v p sz w = (p', w', r) → ps_conf p' = ps_conf p ++ confirmed_by p r.
Proof.
  intros [-> _]%flush_state. unfold flush_pstate, confirmed_by.
  destruct (ps_buf p), r, (v_restore v); simpl; by rewrite ?app_nil_r.
Qed.

Lemma failed_flush_lemma v p sz (w : world obj) p' w' :
  v_restore v = true → flush v p sz w = (p', w', FErr) → p' = p.
Proof.
  intros Hv [-> _]%flush_state. unfold flush_pstate. rewrite Hv. by destruct (ps_buf p).
Qed.

Section flush.
  Variable cov : delta → delta → Prop.
  Hypothesis cov_refl : ∀ d, cov d d.

  Lemma flush_inv v p sz (w : world obj) p' w' r conf :
    flush v p sz w = (p', w', r) →
    Inv cov (w_store w) conf → Inv cov (w_store w') (conf ++ confirmed_by p r).
  Proof.
    unfold flush, confirmed_by. intros Hf HI. revert Hf. destruct (ps_buf p) as [|d0 ds0].
    { intros [= _ <- <-]. by rewrite app_nil_r. }
    set (ds := d0 :: ds0).
    destruct (load_or_create w (ps_rid p)) as [w1 r1] eqn:Hl.
    apply load_or_create_spec in Hl as (Hs1 & Hm1 & _).
    destruct r1 as [m| |]; [|intros [= _ <- <-]; by rewrite app_nil_r, Hs1..].
    specialize (Hm1 m eq_refl). unfold alloc_id.
    assert (Hframe : ∀ st', (∀ k, k ≠ NTmp → k ≠ NSeg (m_next m) → st' !! k = w_store w !! k) →
              Inv cov st' (conf ++ [])).
    { intros st' Hoff. rewrite app_nil_r. eapply inv_frame; [|done]. by eapply fresh_frame. }
    destruct (negb (man_ok _)). { intros [= _ <- <-]. apply Hframe. intros. by rewrite Hs1. }
    destruct (st_put w1 (NSeg (m_next m)) (OSeg ds)) as [w2 r2] eqn:Hp.
    apply st_put_spec in Hp as (Hk2 & Hok2 & _). rewrite Hs1 in Hk2.
    destruct r2 as [[]| |]; [|intros [= _ <- <-]; apply Hframe; intros k _ Hk; by apply Hk2..].
    specialize (Hok2 eq_refl).
    destruct (negb (man_ok _)). { intros [= _ <- <-]. apply Hframe. intros k _ Hk. by apply Hk2. }
    destruct (save w2 _) as [w3 r3] eqn:Hsv.
    apply save_spec in Hsv as (Hk3 & Hok3 & Hfail & _).
    destruct r3 as [[]| |];
      [|intros [= _ <- <-]; apply Hframe; intros k H1 H2; rewrite Hfail by done; by apply Hk2..].
    (* the rename went through: a swap that replaces nothing *)
    intros [= _ <- <-]. specialize (Hok3 eq_refl). eapply inv_install; [done|].
    pose proof (inv_cur cov _ _ _ _ HI Hm1) as Hg.
    set (x := SegInfo (m_next m) (NSeg (m_next m)) (N.of_nat (length ds)) sz (min_time ds) (max_time ds)).
    apply (good_confirm cov _ _ _ x ds cov_refl).
    - apply (good_swapped cov _ _ m _ _ [] [x] ds Hg); [intros ? []| |intros ? ? []].
      apply swapped_intro; try done.
      + apply Hg.
      + intros k H1 H2 H3 _. rewrite Hk3 by done. by apply Hk2.
      + simpl. destruct (_ <=? _); lia.
      + intros s. simpl. rewrite in_insert_seg. simpl. tauto.
      + intros y [<-|[]]. simpl. repeat split; [destruct (_ <=? _); lia|lia|].
        rewrite Hk3 by done. done.
      + right. by exists x.
    - simpl. apply in_insert_seg. by left.
    - unfold vis. simpl. destruct (m_ck m) as [ci|] eqn:Hci; [|done].
      destruct Hg as [Hg _]. by destruct (man_good_ck _ _ _ Hg Hci).
    - simpl. rewrite Hk3 by done. done.
  Qed.
End flush.

Lemma select_sub c m s : In s (select c m) → In s (m_segs m).
Proof.
  unfold select. intros H%firstn_In. apply in_sort_by in H.
  by apply in_filter in H as [_ H].
Qed.

Lemma in_without ids l s : In s (without ids l) ↔ In s l ∧ ¬ In (si_id s) ids.
Proof.
  unfold without. rewrite in_filter.
  split; intros [H1 H2]; split; auto.
  - intros Hin. apply Is_true_true in H1. apply negb_true_iff in H1.
    assert (existsb (N.eqb (si_id s)) ids = true); [|congruence].
    apply existsb_exists. exists (si_id s). split; [done|apply N.eqb_refl].
  - apply Is_true_true, negb_true_iff. destruct (existsb _ _) eqn:E; [|done].
    apply existsb_exists in E as (i & Hi & He). apply N.eqb_eq in He. subst. done.
Qed.

Lemma in_insert_without x ids l s :
  In s (insert_seg x (without ids l)) ↔ In s [x] ∨ (In s l ∧ ¬ In (si_id s) ids).
Proof. rewrite in_insert_seg. simpl. rewrite in_without. tauto. Qed.

Lemma read_segs_world v (w : world obj) segs a w' r :
  read_segs v w segs a = (w', r) →
  w_store w' = w_store w ∧ (w_crashed w = true → w_crashed w' = true).
Proof.
  revert w a. induction segs as [|s segs IH]; intros w a; simpl.
  { by intros [= <- _]. }
  destruct (st_get w (si_key s)) as [w1 g] eqn:Hg.
  apply st_get_spec in Hg as (Hs & _ & _ & Hm).
  assert (Hrec : ∀ a1, read_segs v w1 segs a1 = (w', r) →
            w_store w' = w_store w ∧ (w_crashed w = true → w_crashed w' = true)).
  { intros a1 [E M]%IH. split; [congruence|auto]. }
  destruct g as [[[[]|]|]| |]; try apply Hrec; try by intros [= <- _].
  destruct (v_strict_get v); [by intros [= <- _]|apply Hrec].
Qed.

Lemma read_segs_ok v (w : world obj) segs a w' a' :
  v_strict_get v = true →
  (∀ s, In s segs → ∃ ds, w_store w !! si_key s = Some (Whole (OSeg ds))) →
  read_segs v w segs a = (w', ROk a') →
  ∃ act, (∀ s, In s act → In s segs) ∧
  ca_actual a' = ca_actual a ++ act ∧ ca_missing a' = ca_missing a ∧
  ca_map a' = fold_left (absorb v) (flat_map (seg_deltas (w_store w)) act) (ca_map a).
Proof.
  intros Hv. revert w a. induction segs as [|s segs IH]; intros w a Hex; simpl.
  { intros [= <- <-]. exists []. by rewrite app_nil_r. }
  destruct (st_get w (si_key s)) as [w1 g] eqn:Hg.
  apply st_get_spec in Hg as (Hs & Hr & _).
  destruct (Hex s (or_introl eq_refl)) as (ds & Hds).
  assert (Hex' : ∀ s', In s' segs → ∃ ds', w_store w1 !! si_key s' = Some (Whole (OSeg ds'))).
  { intros s' Hs'. rewrite Hs. apply Hex. by right. }
  destruct Hr as [ -> | [ -> | [ -> | -> ] ] ]; [discriminate| | |].
  { rewrite Hv. discriminate. }
  - (* a clean read *)
    rewrite Hds. intros H. apply IH in H as (act & Hsub & H1 & H2 & H3); [|done].
    simpl in H1, H2, H3. exists (s :: act). split; [|split; [|split]].
    + intros s' [<-|Hs']; [by left|right; auto].
    + by rewrite H1, <- app_assoc.
    + done.
    + rewrite H3, Hs. simpl. rewrite fold_left_app. f_equal. unfold seg_deltas. by rewrite Hds.
  - (* the bytes arrived damaged: the segment is skipped and stays listed *)
    rewrite Hds. simpl. intros H. apply IH in H as (act & Hsub & H1 & H2 & H3); [|done].
    exists act. split; [|split; [|split]]; auto. by rewrite H3, Hs.
Qed.

Lemma delete_all_spec (w : world obj) ns w' dead :
  delete_all w ns = (w', dead) →
  (∀ k, ¬ In k ns → w_store w' !! k = w_store w !! k) ∧
  (w_crashed w = true → w_crashed w' = true).
Proof.
  revert w. induction ns as [|n ns IH]; intros w; simpl.
  { by intros [= <- _]. }
  destruct (st_delete w n) as [w1 g] eqn:Hd. apply st_delete_spec in Hd as (Hk & _ & Hm).
  assert (Hrec : delete_all w1 ns = (w', dead) →
            (∀ k, ¬ In k (n :: ns) → w_store w' !! k = w_store w !! k) ∧
            (w_crashed w = true → w_crashed w' = true)).
  { intros [E M]%IH. split; [|auto]. intros k Hn. rewrite E by (intros ?; apply Hn; by right).
    apply Hk. intros ->. apply Hn. by left. }
  destruct g; try apply Hrec. intros [= <- _]. split; [|done].
  intros k Hn. apply Hk. intros ->. apply Hn. by left.
Qed.

(* the tail both branches of compact_rest end with: swap the manifest, then delete the inputs.
   The goals hold its unfolding; its lemmas are applied up to conversion. *)
Definition swap_delete (w : world obj) (m' : manifest) (ks : list name) (res : cres) : world obj * cres :=
  let '(w3, r3) := save w m' in
  match r3 with
  | RCrash => (w3, CCrash)
  | RErr => (w3, CErr)
  | ROk _ => let '(w4, dead) := delete_all w3 ks in (w4, if dead then CCrash else res)
  end.

Lemma swap_delete_spec w m' ks res w' r :
  swap_delete w m' ks res = (w', r) → ¬ In NMan ks →
  (∀ k, k ≠ NTmp → w_store w' !! k = w_store w !! k) ∨
  (w_store w' !! NMan = Some (Whole (OMan m')) ∧
   ∀ k, k ≠ NTmp → k ≠ NMan → ¬ In k ks → w_store w' !! k = w_store w !! k).
Proof.
  unfold swap_delete. destruct (save w m') as [w3 r3] eqn:Hsv.
  apply save_spec in Hsv as (Hk3 & Hok3 & Hfail & _).
  destruct r3 as [[]| |]; [|intros [= <- _] _; left; by apply Hfail..].
  destruct (delete_all w3 ks) as [w4 dead] eqn:Hd. apply delete_all_spec in Hd as [Hk4 _].
  intros [= <- _] Hks. right. split.
  - rewrite Hk4 by done. by apply Hok3.
  - intros k H1 H2 H3. rewrite Hk4 by done. by apply Hk3.
Qed.

Section steps.
  Variable v : variant.
  Hypothesis Hstrict : v_strict_get v = true.
  Variables (c : ccfg) (now : N).
  (* P0: what is known of the store the compaction starts on; P: what is maintained *)
  Variables P0 P : gmap name (sobj obj) → Prop.
  Hypothesis P0_P : ∀ st, P0 st → P st.
  Hypothesis P_ok : ∀ st, P st → store_ok st.
  Hypothesis P_frame : ∀ st st', P st → framed st st' → P st'.
  Hypothesis P_install : ∀ st st' m m' sel xs out,
    P0 st → cur_manifest st 0 = Some m →
    (∀ s, In s sel → In s (m_segs m)) →
    out = compact_out (now - cc_ttl c) (fold_left (absorb v) (flat_map (seg_deltas st) sel) ∅) →
    swapped st st' m m' sel xs out →
    P st'.

  Lemma compact_steps sz (w : world obj) w' r :
    compact v c now sz w = (w', r) → P0 (w_store w) → P (w_store w').
  Proof.
    intros Hcomp HI0. pose proof (P0_P _ HI0) as HI. revert Hcomp. unfold compact.
    destruct (load_or_create w 0) as [w1 r1] eqn:Hl.
    apply load_or_create_spec in Hl as (Hs1 & Hm1 & _).
    destruct r1 as [m| |]; [|intros [= <- _]; by rewrite Hs1..].
    specialize (Hm1 m eq_refl). unfold compact_rest.
    destruct (_ <? cc_min c). { intros [= <- _]. by rewrite Hs1. }
    destruct (read_segs v w1 (select c m) (CAcc ∅ 0 [] [])) as [w2 r2] eqn:Hr.
    destruct (read_segs_world _ _ _ _ _ _ Hr) as [Hs2 _]. rewrite Hs1 in Hs2.
    destruct r2 as [a| |]; [|intros [= <- _]; by rewrite Hs2..].
    assert (Hg : man_good (w_store w) m).
    { destruct (P_ok _ HI 0) as (m' & Hc' & Hg'). congruence. }
    apply read_segs_ok in Hr as (act & Hact & Ha & Hmi & Hmap); [|done|].
    2: { intros s Hs%select_sub. rewrite Hs1. by destruct (man_good_seg _ _ _ Hg Hs) as (_ & _ & H). }
    simpl in Ha, Hmi, Hmap. rewrite Hs1 in Hmap. rewrite Hmi, Ha, Hmap. clear Ha Hmi Hmap.
    (* every selected segment is there and the get is strict: no input is recorded as missing,
       so the branch that only cleans the manifest up is not taken *)
    rewrite (bool_decide_true ([] = [])) by done. cbn [negb andb].
    destruct (_ <? cc_min c). { intros [= <- _]. by rewrite Hs2. }
    set (st := w_store w) in *. set (ks := map si_key act). set (ids := map si_id act).
    assert (Hsub : ∀ s, In s act → In s (m_segs m)) by (intros s Hs; apply (select_sub c), Hact, Hs).
    assert (Hks : ∀ k, In k ks → ∃ i, k = NSeg i ∧ i < m_next m).
    { intros k (s & <- & Hs)%in_map_iff. destruct (man_good_seg _ _ _ Hg (Hsub s Hs)) as (Hk & Hlt & _). eauto. }
    assert (Hman : ¬ In NMan ks) by (by intros (i & [=] & _)%Hks).
    assert (Hframe : (∀ k, k ≠ NTmp → k ≠ NSeg (m_next m) → w_store w' !! k = st !! k) → P (w_store w')).
    { intros Hoff. eapply P_frame; [exact HI|]. by eapply fresh_frame. }
    destruct (compact_out _ _) as [|o outs] eqn:Hout.
    - (* nothing survives: the manifest is rewritten without the inputs *)
      intros Hf. apply (swap_delete_spec w2 _ ks (COk ids None)) in Hf as [Hoff|[HM Hoff]]; [| |done].
      + apply Hframe. intros k Hk _. rewrite Hoff by done. by rewrite Hs2.
      + eapply (P_install st _ m _ act [] []); [done..|].
        apply swapped_intro; try done.
        * intros k H1 H2 _ H4. rewrite Hoff by done. by rewrite Hs2.
        * intros s. simpl. rewrite in_without. tauto.
        * by left.
    - (* a new segment is written under the first unallocated name, then the manifest is
         swapped *)
      set (out := o :: outs) in *.
      destruct (st_put w2 (NSeg (m_next m)) (OSeg out)) as [w3 r3] eqn:Hp.
      apply st_put_spec in Hp as (Hk3 & Hok3 & _). rewrite Hs2 in Hk3.
      destruct r3 as [[]| |]; [|intros [= <- _]; apply Hframe; intros k _ Hk; by apply Hk3..].
      specialize (Hok3 eq_refl).
      destruct (negb (man_ok _)). { intros [= <- _]. apply Hframe. intros k _ Hk. by apply Hk3. }
      intros Hf. apply (swap_delete_spec w3 _ ks (COk ids (Some (m_next m)))) in Hf as [Hoff|[HM Hoff]]; [| |done].
      + apply Hframe. intros k H1 H2. rewrite Hoff by done. by apply Hk3.
      + eapply (P_install st _ m _ act [_] out); [done..|].
        apply swapped_intro; try done.
        * intros k H1 H2 H3 H4. rewrite Hoff by done. by apply Hk3.
        * simpl. lia.
        * intros s. apply in_insert_without.
        * intros x [<-|[]]. simpl. repeat split; [lia|lia|].
          rewrite Hoff; [done|discriminate|discriminate|]. intros (i & [= <-] & Hlt)%Hks. lia.
        * right. eexists. split; [done|discriminate].
  Qed.
End steps.

Section compact_inv.
  Variable cov : delta → delta → Prop.
  Hypothesis cov_trans : ∀ a b c, cov a b → cov b c → cov a c.
  Variable v : variant.
  Hypothesis Hstrict : v_strict_get v = true.
  (* cutoff 0: tombstone GC inactive *)
  Hypothesis Hcf : ∀ ds d, In d ds →
    ∃ d', In d' (compact_out 0 (fold_left (absorb v) ds ∅)) ∧ cov d' d.

  (* with nothing confirmed the content premise is not needed: tombstone GC may be on *)
  Lemma compact_inv c now sz (w : world obj) w' r conf :
    conf = [] ∨ now <= cc_ttl c →
    compact v c now sz w = (w', r) →
    Inv cov (w_store w) conf → Inv cov (w_store w') conf.
  Proof.
    intros Hnow. apply (compact_steps v Hstrict c now (λ st, Inv cov st conf) (λ st, Inv cov st conf)).
    - done.
    - intros st. apply inv_store_ok.
    - intros st st' HI Hf. by eapply inv_frame.
    - intros st st' m m' sel xs out HI Hm Hsel Hout Hsw.
      eapply inv_install; [by destruct Hsw|].
      eapply (good_swapped cov); [by eapply inv_cur|done..|].
      intros d' d Hd' Hd Hc. destruct Hnow as [->|Hnow]; [destruct Hd|].
      destruct (Hcf _ d' Hd') as (d'' & Hd'' & Hc''). exists d''.
      split; [|by eapply cov_trans]. rewrite Hout. by replace (now - cc_ttl c) with 0 by lia.
  Qed.
End compact_inv.

Lemma in_compact_out (cutoff : N) (m : gmap (list N) delta) (e : delta) :
  In e (compact_out cutoff m) ↔ (∃ k, m !! k = Some e) ∧ keep_delta cutoff e = true.
Proof.
  unfold compact_out. rewrite in_sort_by, in_filter, in_map_iff, Is_true_true. split.
  - intros [Hk ([k e'] & <- & Hin%elem_of_list_In%elem_of_map_to_list)]. split; [eauto|done].
  - intros [[k Hk] Hkeep]. split; [done|]. exists (k, e). split; [done|].
    by apply elem_of_list_In, elem_of_map_to_list.
Qed.

Lemma keep_delta_0 d : keep_delta 0 d = true.
Proof. unfold keep_delta. destruct (d_time d); by rewrite andb_false_r. Qed.

Definition absorb_val (v : variant) (e d : delta) : delta :=
  if v_merge v then Delta (d_key e) (rv_merge (d_val e) (d_val d)) (d_src e)
  else if d_time e <? d_time d then d else e.

Lemma absorb_insert v m d :
  absorb v m d =
  <[d_key d := match m !! d_key d with Some e => absorb_val v e d | None => d end]> m.
Proof.
  unfold absorb, absorb_val. destruct (m !! d_key d) as [e|] eqn:He; [|done].
  destruct (v_merge v); [done|]. destruct (d_time e <? d_time d); [done|].
  by rewrite insert_id.
Qed.

Lemma absorb_val_key v e d : d_key e = d_key d → d_key (absorb_val v e d) = d_key d.
Proof. intros Hk. unfold absorb_val. destruct (v_merge v); [done|]. by destruct (_ <? _). Qed.

Lemma absorb_keeps_keys (v : variant) (m : gmap (list N) delta) (d : delta) :
  (∀ k e, m !! k = Some e → d_key e = k) → ∀ k e, absorb v m d !! k = Some e → d_key e = k.
Proof.
  intros Hk k e. rewrite absorb_insert. destruct (decide (k = d_key d)) as [->|Hne].
  - rewrite lookup_insert. intros [= <-].
    destruct (m !! d_key d) as [e0|] eqn:He; [|done]. by apply absorb_val_key, Hk.
  - rewrite lookup_insert_ne by done. apply Hk.
Qed.

Section content.
  Variable cov : delta → delta → Prop.
  Variable v : variant.
  Hypothesis cov_refl : ∀ d, cov d d.
  Hypothesis cov_step : ∀ e d, d_key e = d_key d →
    d_key (absorb_val v e d) = d_key d ∧ cov (absorb_val v e d) d ∧
    ∀ d0, cov e d0 → cov (absorb_val v e d) d0.

  Definition content_inv (m : gmap (list N) delta) (seen : list delta) : Prop :=
    (∀ k e, m !! k = Some e → d_key e = k) ∧
    (∀ d, In d seen → ∃ e, m !! d_key d = Some e ∧ cov e d).

  Lemma content_step m seen d :
    content_inv m seen → content_inv (absorb v m d) (seen ++ [d]).
  Proof.
    intros [Hk Hc]. split; [by apply absorb_keeps_keys|]. rewrite absorb_insert.
    set (e' := match m !! d_key d with Some e => absorb_val v e d | None => d end).
    assert (He' : cov e' d ∧ ∀ e d0, m !! d_key d = Some e → cov e d0 → cov e' d0).
    { unfold e'. destruct (m !! d_key d) as [e|] eqn:He.
      - destruct (cov_step e d (Hk _ _ He)) as (_ & S2 & S3).
        split; [done|]. intros e0 d0 [= <-]. apply S3.
      - split; [apply cov_refl|]. intros ? ? [=]. }
    destruct He' as (S2 & S3).
    intros d0 Hd0. apply in_app_or in Hd0 as [Hd0|[<-|[]]].
    - destruct (Hc d0 Hd0) as (e0 & H1 & H2).
      destruct (decide (d_key d0 = d_key d)) as [Heq|Hne].
      + rewrite Heq, lookup_insert. eexists; split; [done|]. rewrite Heq in H1. by eapply S3.
      + rewrite lookup_insert_ne by done. eauto.
    - rewrite lookup_insert. eauto.
  Qed.

  Lemma content_fold ds m seen :
    content_inv m seen → content_inv (fold_left (absorb v) ds m) (seen ++ ds).
  Proof.
    revert m seen. induction ds as [|d ds IH]; intros m seen H; simpl.
    - by rewrite app_nil_r.
    - replace (seen ++ d :: ds) with ((seen ++ [d]) ++ ds) by (by rewrite <- app_assoc).
      apply IH. by apply content_step.
  Qed.

  Lemma compact_covers ds d :
    In d ds → ∃ d', In d' (compact_out 0 (fold_left (absorb v) ds ∅)) ∧ cov d' d.
  Proof.
    intros Hd. destruct (content_fold ds ∅ []) as [_ Hc].
    { split; [intros k e; by rewrite lookup_empty|intros ? []]. }
    destruct (Hc d Hd) as (e & He & Hcov). exists e. split; [|done].
    apply in_compact_out. split; [eauto|apply keep_delta_0].
  Qed.
End content.

Lemma contains_trans a b c : Contains a b → Contains b c → Contains a c.
Proof. induction 1; intros Hbc; auto using Contains. Qed.
Lemma represents_refl d : represents d d.
Proof. split; [done|constructor]. Qed.
Lemma represents_trans a b c : represents a b → represents b c → represents a c.
Proof. intros [H1 H2] [H3 H4]. split; [congruence|]. by eapply contains_trans. Qed.
Lemma supersedes_refl d : supersedes d d.
Proof. split; [done|lia]. Qed.
Lemma supersedes_trans a b c : supersedes a b → supersedes b c → supersedes a c.
Proof. intros [H1 H2] [H3 H4]. split; [congruence|lia]. Qed.

Lemma represents_step v e d : v_merge v = true → d_key e = d_key d →
  represents (absorb_val v e d) d ∧ ∀ d0, represents e d0 → represents (absorb_val v e d) d0.
Proof.
  intros Hv Hk. unfold absorb_val. rewrite Hv. split.
  - split; [done|]. simpl. apply contains_r. constructor.
  - intros d0 [H1 H2]. split; [simpl; congruence|]. simpl. by apply contains_l.
Qed.
Lemma supersedes_step v e d : v_merge v = false → d_key e = d_key d →
  supersedes (absorb_val v e d) d ∧ ∀ d0, supersedes e d0 → supersedes (absorb_val v e d) d0.
Proof.
  intros Hv Hk. unfold absorb_val. rewrite Hv.
  destruct (d_time e <? d_time d) eqn:E; [apply N.ltb_lt in E|apply N.ltb_ge in E].
  - split; [apply supersedes_refl|]. intros d0 [H1 H2]. split; [congruence|lia].
  - split; [by split|]. auto.
Qed.

Lemma load_segs_flat (st : gmap name (sobj obj)) l all :
  load_segs st l = Some all → all = flat_map (seg_deltas st) l.
Proof.
  revert all. induction l as [|s l IH]; intros all; simpl; [by intros [= <-]|].
  unfold load_seg, seg_deltas. destruct (st !! si_key s) as [[[ds| |]|]|]; try discriminate.
  destruct (load_segs st l) as [rest|]; [|discriminate]. intros [= <-]. by rewrite (IH rest).
Qed.

Lemma load_segs_some (st : gmap name (sobj obj)) l :
  (∀ s, In s l → ∃ ds, st !! si_key s = Some (Whole (OSeg ds))) → is_Some (load_segs st l).
Proof.
  induction l as [|s l IH]; intros Hex; simpl; [by eexists|].
  destruct (Hex s (or_introl eq_refl)) as (ds & Hds).
  destruct IH as [rest Hr]; [intros; apply Hex; by right|].
  unfold load_seg. rewrite Hds, Hr. by eexists.
Qed.

Lemma in_visible m s : In s (visible m) ↔ In s (m_segs m) ∧ vis m s.
Proof.
  unfold visible, vis. rewrite in_sort_by. destruct (m_ck m) as [ci|]; [|tauto].
  rewrite in_filter, Is_true_true, N.ltb_lt. tauto.
Qed.

Lemma inv_recover cov st conf rid :
  Inv cov st conf →
  ∃ rec, recover st rid = Some rec ∧ ∀ d, In d conf → ∃ d', In d' (r_deltas rec) ∧ cov d' d.
Proof.
  intros HI. destruct (HI rid) as (m & Hc & [Hg Hcov]).
  destruct (load_segs_some st (visible m)) as [all Hall].
  { intros s [Hs _]%in_visible. by destruct (man_good_seg _ _ _ Hg Hs) as (_ & _ & H). }
  assert (Hd : ∀ d, In d conf → ∃ d', In d' all ∧ cov d' d).
  { intros d Hd. destruct (Hcov d Hd) as (s & ds & d' & H1 & H2 & H3 & H4 & H5).
    exists d'. split; [|done]. rewrite (load_segs_flat _ _ _ Hall). apply in_flat_map.
    exists s. split; [by apply in_visible|]. unfold seg_deltas. by rewrite H3. }
  unfold recover. rewrite Hc. destruct (m_ck m) as [ci|] eqn:Hci.
  - destruct (man_good_ck _ _ _ Hg Hci) as (_ & _ & kvs & Hk). rewrite Hk, Hall. by eexists.
  - rewrite Hall. by eexists.
Qed.

Section run.
  Variable cov : delta → delta → Prop.
  Hypothesis cov_refl : ∀ d, cov d d.
  Variable c : pcfg.

  Definition step_keeps (s : sys) (op : wop) (conf : list delta) : Prop :=
    Inv cov (w_store (s_w s)) conf →
    ∃ ds, ps_conf (s_p (wstep c s op)) = ps_conf (s_p s) ++ ds ∧
          Inv cov (w_store (s_w (wstep c s op))) (conf ++ ds).

  Lemma run_inv (Q : wop → Prop) ops s conf0 :
    (∀ s op conf, Q op → step_keeps s op conf) →
    Forall Q ops → Inv cov (w_store (s_w s)) (conf0 ++ ps_conf (s_p s)) →
    let s' := fold_left (wstep c) ops s in
    Inv cov (w_store (s_w s')) (conf0 ++ ps_conf (s_p s')).
  Proof.
    intros Hstep. revert s. induction ops as [|op ops IH]; intros s Hall HI; simpl; [done|].
    inversion Hall as [|? ? Hop Hall']; subst. apply IH; [done|].
    destruct (Hstep s op _ Hop HI) as (ds & -> & HI'). by rewrite app_assoc.
  Qed.

  (* push and flush: no hypothesis on the variant.  [op_nc] is the predicate of
     [no_compaction], [op_gc_off] below that of [gc_off] (Model/Persist.v). *)
  Definition op_nc (op : wop) : Prop := match op with WCompact _ _ => False | _ => True end.

  Lemma wstep_inv_nc s op conf : op_nc op → step_keeps s op conf.
  Proof.
    intros Hop HI. destruct op as [d|sz|now sz]; simpl; [| |done].
    - exists []. rewrite !app_nil_r. unfold push. by destruct (_ <=? _).
    - destruct (flush (pc_var c) (s_p s) sz (s_w s)) as [[p w] r] eqn:Hf. simpl.
      exists (confirmed_by (s_p s) r). split; [by eapply flush_conf|].
      apply (flush_inv cov cov_refl _ _ _ _ _ _ _ _ Hf) in HI. by destruct r.
  Qed.

  Hypothesis cov_trans : ∀ x y z, cov x y → cov y z → cov x z.
  Hypothesis cov_step : ∀ e d, d_key e = d_key d →
    cov (absorb_val (pc_var c) e d) d ∧ ∀ d0, cov e d0 → cov (absorb_val (pc_var c) e d) d0.
  Hypothesis Hstrict : v_strict_get (pc_var c) = true.

  Definition op_gc_off (op : wop) : Prop :=
    match op with WCompact now _ => now <= cc_ttl (pc_cc c) | _ => True end.

  (* the case [conf = []] gives C12_manifest_refs_complete with tombstone GC on *)
  Lemma wstep_inv s op conf : conf = [] ∨ op_gc_off op → step_keeps s op conf.
  Proof.
    intros Hop HI. destruct op as [d|sz|now sz]; [by apply wstep_inv_nc..|]. simpl.
    destruct (compact (pc_var c) (pc_cc c) now sz (s_w s)) as [w r] eqn:Hc. simpl.
    exists []. rewrite !app_nil_r. split; [done|].
    eapply (compact_inv cov cov_trans (pc_var c) Hstrict) in Hc; [by destruct r| |exact Hop|exact HI].
    intros ds d. apply compact_covers; [done|].
    intros e d0 Hk. split; [by apply absorb_val_key|by apply cov_step].
  Qed.

  Lemma run_inv_from ops s conf0 :
    gc_off (pc_cc c) ops → Inv cov (w_store (s_w s)) (conf0 ++ ps_conf (s_p s)) →
    let s' := fold_left (wstep c) ops s in
    Inv cov (w_store (s_w s')) (conf0 ++ ps_conf (s_p s')).
  Proof. apply (run_inv op_gc_off). intros s' op conf Hop. apply wstep_inv. by right. Qed.

  Lemma run_ok_from ops s :
    store_ok (w_store (s_w s)) → store_ok (w_store (s_w (fold_left (wstep c) ops s))).
  Proof.
    revert s. induction ops as [|op ops IH]; intros s Hok; simpl; [done|]. apply IH.
    destruct (wstep_inv s op [] (or_introl eq_refl) (store_ok_inv cov _ Hok)) as (ds & _ & K1).
    exact (inv_store_ok cov _ _ K1).
  Qed.

  Lemma confirmed_lemma rid rid' st0 ops io :
    store_ok st0 → gc_off (pc_cc c) ops →
    let s := run_persist c rid st0 ops io in
    ∃ rec, recover (w_store (s_w s)) rid' = Some rec ∧
      ∀ d, In d (ps_conf (s_p s)) → ∃ d', In d' (r_deltas rec) ∧ cov d' d.
  Proof.
    intros H0 Hgc s. apply (inv_recover cov). apply (run_inv_from ops _ [] Hgc).
    simpl. by apply store_ok_inv.
  Qed.
  Lemma restarts_lemma rid st0 hist rid' :
    store_ok st0 → Forall (λ h, gc_off (pc_cc c) (fst h)) hist →
    let '(st, conf) := run_incarnations c rid st0 hist in
    ∃ rec, recover st rid' = Some rec ∧ ∀ d, In d conf → ∃ d', In d' (r_deltas rec) ∧ cov d' d.
  Proof.
    intros H0 Hgc.
    assert (H : ∀ conf0, Inv cov st0 conf0 →
      Inv cov (fst (run_incarnations c rid st0 hist)) (conf0 ++ snd (run_incarnations c rid st0 hist))).
    { clear H0. revert st0. induction hist as [|[ops io] hist IH]; intros st0 conf0 HI; simpl.
      - by rewrite app_nil_r.
      - inversion Hgc as [|? ? Hg1 Hg2]; subst. simpl in Hg1.
        set (s := run_persist c rid st0 ops io).
        specialize (IH Hg2 (w_store (s_w s)) (conf0 ++ ps_conf (s_p s))).
        destruct (run_incarnations c rid (w_store (s_w s)) hist) as [st conf] eqn:E. simpl in *.
        rewrite app_assoc. apply IH. apply run_inv_from; [done|]. simpl. by rewrite app_nil_r. }
    specialize (H [] (store_ok_inv _ _ H0)).
    destruct (run_incarnations c rid st0 hist) as [st conf]. simpl in H.
    by apply (inv_recover cov).
  Qed.
End run.

Lemma store_ok_empty : store_ok ∅.
Proof.
  intros rid. exists (new_manifest rid). split; [done|]. split; [constructor|done].
Qed.

(* nothing is confirmed: any relation will do *)
Lemma refs_complete_lemma c rid st0 ops io :
  v_strict_get (pc_var c) = true → store_ok st0 →
  store_ok (w_store (s_w (run_persist c rid st0 ops io))).
Proof.
  intros Hv H0. by apply (run_ok_from (λ _ _, True) (λ _, I) c).
Qed.

Lemma confirmed_recoverable_lemma c rid rid' st0 ops io :
  v_strict_get (pc_var c) = true → v_merge (pc_var c) = true →
  store_ok st0 → gc_off (pc_cc c) ops →
  let s := run_persist c rid st0 ops io in
  ∃ rec, recover (w_store (s_w s)) rid' = Some rec ∧
    ∀ d, In d (ps_conf (s_p s)) → ∃ d', In d' (r_deltas rec) ∧ represents d' d.
Proof.
  intros Hv Hm. apply (confirmed_lemma represents represents_refl c represents_trans); [|done].
  intros e d. by apply represents_step.
Qed.

Lemma confirmed_superseded_lemma c rid rid' st0 ops io :
  v_strict_get (pc_var c) = true → v_merge (pc_var c) = false →
  store_ok st0 → gc_off (pc_cc c) ops →
  let s := run_persist c rid st0 ops io in
  ∃ rec, recover (w_store (s_w s)) rid' = Some rec ∧
    ∀ d, In d (ps_conf (s_p s)) → ∃ d', In d' (r_deltas rec) ∧ supersedes d' d.
Proof.
  intros Hv Hm. apply (confirmed_lemma supersedes supersedes_refl c supersedes_trans); [|done].
  intros e d. by apply supersedes_step.
Qed.

Lemma confirmed_verbatim_lemma c rid rid' st0 ops io :
  store_ok st0 → no_compaction ops →
  let s := run_persist c rid st0 ops io in
  ∃ rec, recover (w_store (s_w s)) rid' = Some rec ∧
    ∀ d, In d (ps_conf (s_p s)) → In d (r_deltas rec).
Proof.
  intros H0 Hnc s.
  destruct (inv_recover eq (w_store (s_w s)) (ps_conf (s_p s)) rid') as (rec & Hr & Hin).
  - apply (run_inv eq c op_nc ops _ []); [apply wstep_inv_nc; by intros|exact Hnc|].
    simpl. by apply store_ok_inv.
  - exists rec. split; [done|]. intros d Hd. destruct (Hin d Hd) as (d' & H1 & ->). done.
Qed.

Lemma confirmed_restarts_lemma c rid st0 hist rid' :
  v_strict_get (pc_var c) = true → v_merge (pc_var c) = true →
  store_ok st0 → Forall (λ h, gc_off (pc_cc c) (fst h)) hist →
  let '(st, conf) := run_incarnations c rid st0 hist in
  ∃ rec, recover st rid' = Some rec ∧
    ∀ d, In d conf → ∃ d', In d' (r_deltas rec) ∧ represents d' d.
Proof.
  intros Hv Hm. apply (restarts_lemma represents represents_refl c represents_trans); [|done].
  intros e d. by apply represents_step.
Qed.

Lemma swap_delete_crashed w m' ks res w' r :
  swap_delete w m' ks res = (w', r) → w_crashed w = true → w_crashed w' = true.
Proof.
  unfold swap_delete. destruct (save w m') as [w3 r3] eqn:Hs.
  apply save_spec in Hs as (_ & _ & _ & _ & M3).
  destruct r3 as [[]| |]; [|by intros [= <- _]..].
  destruct (delete_all w3 ks) as [w4 dead] eqn:Hd. apply delete_all_spec in Hd as [_ M4].
  intros [= <- _]. auto.
Qed.

Lemma compact_crashed v c now sz (w : world obj) w' r :
  compact v c now sz w = (w', r) → w_crashed w = true → w_crashed w' = true.
Proof.
  unfold compact. destruct (load_or_create w 0) as [w1 r1] eqn:Hl.
  apply load_or_create_spec in Hl as (_ & _ & _ & M1).
  destruct r1 as [m| |]; [|by intros [= <- _]..]. unfold compact_rest.
  destruct (_ <? _). { by intros [= <- _]. }
  destruct (read_segs _ _ _ _) as [w2 r2] eqn:Hr. apply read_segs_world in Hr as [_ M2].
  destruct r2 as [a| |]; [|intros [= <- _]; auto..].
  destruct (_ && _).
  { destruct (save w2 _) as [w3 r3] eqn:Hs. apply save_spec in Hs as (_ & _ & _ & _ & M3).
    intros [= <- _]. auto. }
  destruct (_ <? _). { intros [= <- _]. auto. }
  destruct (compact_out _ _).
  - intros H Hc. apply swap_delete_crashed in H; auto.
  - destruct (st_put w2 _ _) as [w3 r3] eqn:Hp. apply st_put_spec in Hp as (_ & _ & _ & M3).
    destruct r3 as [[]| |]; [|intros [= <- _]; auto..].
    destruct (negb _). { intros [= <- _]. auto. }
    intros H Hc. apply swap_delete_crashed in H; auto.
Qed.

Lemma flush_acc v p r :
  v_restore v = true → r ≠ FCrash → r ≠ FPanic → ps_acc p = ps_conf p ++ ps_buf p →
  ps_acc (flush_pstate v p r) = ps_conf (flush_pstate v p r) ++ ps_buf (flush_pstate v p r).
Proof.
  intros Hv H1 H2 HJ. unfold flush_pstate. rewrite Hv.
  destruct (ps_buf p) eqn:Hb; [simpl; congruence|].
  destruct r; simpl; rewrite ?app_nil_r; congruence.
Qed.

Lemma accepted_lemma c rid st0 ops io :
  v_restore (pc_var c) = true →
  let s := run_persist c rid st0 ops io in
  w_crashed (s_w s) = false → ps_acc (s_p s) = ps_conf (s_p s) ++ ps_buf (s_p s).
Proof.
  intros Hv. unfold run_persist.
  assert (H : ∀ s, (w_crashed (s_w s) = false → ps_acc (s_p s) = ps_conf (s_p s) ++ ps_buf (s_p s)) →
     let s' := fold_left (wstep c) ops s in
     w_crashed (s_w s') = false → ps_acc (s_p s') = ps_conf (s_p s') ++ ps_buf (s_p s')).
  { induction ops as [|op ops IH]; intros s HJ; simpl; [done|]. apply IH.
    destruct op as [d|sz|now sz]; simpl.
    - unfold push. destruct (_ <=? _); simpl; [done|]. intros Hc. rewrite (HJ Hc). by rewrite app_assoc.
    - destruct (flush (pc_var c) (s_p s) sz (s_w s)) as [[p w] r] eqn:Hf. simpl.
      destruct (flush_state _ _ _ _ _ _ _ Hf) as (-> & M & C).
      intros Hc. apply flush_acc; [done|intros ->|intros ->|].
      + by rewrite C in Hc.
      + discriminate.
      + apply HJ. destruct (w_crashed (s_w s)); [|done]. destruct r; by rewrite ?M in Hc.
    - destruct (compact (pc_var c) (pc_cc c) now sz (s_w s)) as [w r] eqn:Hc'. simpl.
      pose proof (compact_crashed _ _ _ _ _ _ _ Hc') as M. intros Hc. apply HJ.
      destruct (w_crashed (s_w s)); [|done]. destruct r; by rewrite ?M in Hc. }
  apply H. simpl. done.
Qed.

(* [dlt k val t r]: replica [r] writes the LWW value [val] to key [k] at stamp (t, r);
   [sig_of d]: (first byte of the key, logical time); [ex_pcfg]: threshold 1 MiB; target
   1000, min 2, max 5 segments per compaction, ttl 1000 *)
Definition lwwv (val t r : N) : rvalue :=
  RV (CLww (Lww (Some [val]) (Stamp t r) false)) None None (Stamp t r) None.
Definition dlt (k val t r : N) : delta := Delta [k] (lwwv val t r) r.
Definition ex_pcfg (v : variant) : pcfg := PCfg v 1048576 (CCfg 1000 2 5 1000).
Definition sig_of (d : delta) : N * N := (hd 0 (d_key d), d_time d).

Definition w1_ops : list wop := [WPush (dlt 1 7 1 1); WFlush 100].
Definition w1_io : list outcome := [OErr ENone].
Lemma as_found_flush_drops_buffer :
  let s := run_persist (ex_pcfg as_found) 1 ∅ w1_ops w1_io in
  s_res s = [RFlush FErr 0; RPush true] ∧ w_crashed (s_w s) = false ∧
  ps_acc (s_p s) = [dlt 1 7 1 1] ∧ ps_conf (s_p s) = [] ∧ ps_buf (s_p s) = [].
Proof. vm_compute. repeat split. Qed.
Lemma repaired_flush_keeps_buffer_example :
  let s := run_persist (ex_pcfg repaired) 1 ∅ w1_ops w1_io in
  s_res s = [RFlush FErr 1; RPush true] ∧ ps_buf (s_p s) = [dlt 1 7 1 1].
Proof. vm_compute. repeat split. Qed.

Definition w2_ops : list wop :=
  [WPush (dlt 1 7 1 1); WFlush 100; WPush (dlt 2 8 2 1); WFlush 100; WCompact 0 100].
Definition w2_io : list outcome :=
  [OOk; OOk; OOk; OOk; OOk; OOk; OOk; OOk; OOk; OErr ENone; OOk; OOk; OOk; OOk; OOk; OOk].
Lemma as_found_compaction_get_error :
  let s := run_persist (ex_pcfg as_found) 1 ∅ w2_ops w2_io in
  w_crashed (s_w s) = false ∧ w_io (s_w s) = [] ∧
  ps_conf (s_p s) = [dlt 1 7 1 1; dlt 2 8 2 1] ∧
  ∃ rec, recover (w_store (s_w s)) 1 = Some rec ∧ r_deltas rec = [dlt 2 8 2 1].
Proof. vm_compute. repeat split. eexists. split; reflexivity. Qed.
Lemma repaired_compaction_get_error :
  let s := run_persist (ex_pcfg repaired) 1 ∅ w2_ops w2_io in
  s_res s = [RCompact CErr; RFlush (FOk 1) 0; RPush true; RFlush (FOk 1) 0; RPush true] ∧
  match recover (w_store (s_w s)) 1 with
  | Some rec => map sig_of (r_deltas rec) = [(1, 1); (2, 2)]
  | None => False
  end.
Proof. vm_compute. repeat split. Qed.

Definition w3_ops : list wop :=
  [WPush (dlt 1 7 1 1); WFlush 100;
   WPush (dlt 2 8 2 1); WPush (dlt 1 9 3 2); WFlush 100; WFlush 100;
   WCompact 0 100].
Definition w3_io : list outcome :=
  [OOk; OOk; OOk; OOk;          (* flush 1 *)
   OOk; OErr ETorn;              (* flush 2: the segment put is torn *)
   OOk; OOk; OOk; OOk;           (* flush 3: retried, succeeds *)
   OOk; OOk; OOk; OOk; OOk; OOk; OOk].  (* compaction; the stream ends before the 2nd delete *)
