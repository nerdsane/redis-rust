(* Lemmas for C11 (and C13): what recovery returns, folded into a node state, is the
   merge of everything persisted - independent of order and multiplicity. *)
From stdpp Require Import gmap.
From Coq Require Import NArith Lia.
From RV Require Import Model.Crdt Model.Store Model.Persist.
From RV Require Import Proofs.MergeFoldProofs Proofs.PersistProofs.
Local Open Scope N_scope.

Definition valsk (k : list N) (us : list (list N * rvalue)) : list rvalue :=
  map snd (filter (λ p, p.1 = k) us).
Definition mfoldo (o : option rvalue) (vs : list rvalue) : option rvalue :=
  match o, vs with
  | Some x, _ => Some (mfold1 x vs)
  | None, [] => None
  | None, v :: r => Some (mfold1 v r)
  end.

Lemma valsk_cons k p us :
  valsk k (p :: us) = if decide (p.1 = k) then p.2 :: valsk k us else valsk k us.
Proof. unfold valsk. rewrite filter_cons. by destruct (decide (p.1 = k)). Qed.
Lemma valsk_app k us us' : valsk k (us ++ us') = valsk k us ++ valsk k us'.
Proof. unfold valsk. by rewrite filter_app, map_app. Qed.
Lemma in_valsk k us v : In v (valsk k us) ↔ In (k, v) us.
Proof.
  unfold valsk. rewrite in_map_iff. split.
  - intros ([k' v'] & <- & [Hk H]%in_filter). simpl in *. by subst.
  - intros H. exists (k, v). split; [done|]. by apply in_filter.
Qed.

Lemma mfoldo_cons o v vs : mfoldo o (v :: vs) = mfoldo (mfoldo o [v]) vs.
Proof. destruct o; reflexivity. Qed.
Lemma mfoldo_app o vs ws : mfoldo o (vs ++ ws) = mfoldo (mfoldo o vs) ws.
Proof.
  revert o. induction vs as [|v vs IH]; intros o; simpl.
  - destruct o; [done|]. by destruct ws.
  - rewrite mfoldo_cons, IH. by rewrite <- mfoldo_cons.
Qed.

Lemma merge_into_lookup s k v j :
  merge_into s k v !! j = if decide (j = k) then mfoldo (s !! k) [v] else s !! j.
Proof.
  unfold merge_into. destruct (decide (j = k)) as [->|Hne].
  - rewrite lookup_insert. by destruct (s !! k).
  - by rewrite lookup_insert_ne.
Qed.

Lemma replay_lookup us s k : replay us s !! k = mfoldo (s !! k) (valsk k us).
Proof.
  revert s. induction us as [|p us IH]; intros s; simpl.
  - by destruct (s !! k).
  - unfold replay in *. simpl. rewrite IH, valsk_cons, merge_into_lookup.
    destruct (decide (p.1 = k)) as [<-|Hne].
    + rewrite decide_True by done. by rewrite <- mfoldo_cons.
    + by rewrite decide_False by done.
Qed.

Lemma replay_app us us' s : replay (us ++ us') s = replay us' (replay us s).
Proof. unfold replay. by rewrite fold_left_app. Qed.

Lemma apply_deltas_replay ds s : fold_left apply_delta ds s = replay (map upd_of ds) s.
Proof. revert s. induction ds as [|d ds IH]; intros s; simpl; [done|]. by rewrite IH. Qed.

Lemma in_option_list {A} (o : option A) x : In x (option_list o) ↔ o = Some x.
Proof. destruct o; simpl; [|by split]. split; [by intros [->|[]]|intros [= ->]; by left]. Qed.

Lemma mfoldo_set_determined o vs vs' l :
  (∀ v, In v vs ↔ In v vs') →
  Coh l → (∀ v, In v (option_list o ++ vs') → In v l) →
  option_map obs (mfoldo o vs) = option_map obs (mfoldo o vs').
Proof.
  intros Hset Hc Hl. destruct o as [x|]; simpl in *.
  - f_equal. apply fold_set_determined; [|intros z; simpl; by rewrite Hset].
    eapply Coh_sub; [|exact Hc]. intros z. simpl. rewrite in_app_iff. simpl. rewrite Hset.
    intros [?|[?|[?|?]]]; auto.
  - destruct vs as [|v r], vs' as [|v' r']; simpl; [done| | |].
    + exfalso. apply (Hset v'). by left.
    + exfalso. apply (Hset v). by left.
    + f_equal. apply fold_set_determined; [|intros z; apply Hset].
      eapply Coh_sub; [|exact Hc]. intros z. rewrite in_app_iff, Hset. intros [?|?]; auto.
Qed.

Lemma coherent_sub (l l' : list (list N * rvalue)) :
  (∀ p, In p l' → In p l) → coherent l → coherent l'.
Proof. intros Hs Hc a b Ha Hb. apply Hc; auto. Qed.

Lemma coh_key (k : list N) (s : gmap (list N) rvalue) us :
  coherent (map_to_list s ++ us) → Coh (option_list (s !! k) ++ valsk k us).
Proof.
  intros Hco.
  assert (Hl : ∀ x, In x (option_list (s !! k) ++ valsk k us) → In (k, x) (map_to_list s ++ us)).
  { intros x [Hx|Hx]%in_app_or; apply in_or_app.
    - left. apply in_option_list in Hx. by apply elem_of_list_In, elem_of_map_to_list.
    - right. by apply in_valsk. }
  intros a b Ha Hb. apply (Hco (k, a) (k, b)); auto.
Qed.

Theorem replay_set_determined s us us' :
  (∀ p, In p us ↔ In p us') → coherent (map_to_list s ++ us) →
  obs_kv (replay us s) = obs_kv (replay us' s).
Proof.
  intros Hset Hc. apply map_eq. intros k. unfold obs_kv. rewrite !lookup_fmap, !replay_lookup.
  eapply mfoldo_set_determined; [|by apply (coh_key k s us)|].
  - intros v. by rewrite !in_valsk, Hset.
  - intros v. by rewrite !in_app_iff, !in_valsk, Hset.
Qed.

Lemma load_segs_in (st : gmap name (sobj obj)) l all :
  load_segs st l = Some all → ∀ d, In d all ↔ ∃ s, In s l ∧ In d (seg_deltas st s).
Proof. intros ->%load_segs_flat d. apply in_flat_map. Qed.

Lemma recover_parts st rid rec :
  recover st rid = Some rec →
  cur_manifest st rid = Some (r_man rec) ∧
  load_segs st (visible (r_man rec)) = Some (r_deltas rec) ∧
  r_ck rec = match m_ck (r_man rec) with
             | Some ci => match st !! ci_key ci with Some (Whole (OCk kvs)) => Some kvs | _ => None end
             | None => None
             end.
Proof.
  unfold recover. destruct (cur_manifest st rid) as [m|]; [|discriminate].
  destruct (m_ck m) as [ci|] eqn:Hci.
  - destruct (st !! ci_key ci) as [[[| |kvs]|]|] eqn:Hk; try discriminate.
    destruct (load_segs st (visible m)) as [ds|] eqn:E; [|discriminate].
    intros [= <-]. simpl. by rewrite Hci, Hk.
  - destruct (load_segs st (visible m)) as [ds|] eqn:E; [|discriminate].
    intros [= <-]. simpl. by rewrite Hci.
Qed.

Lemma recover_spec st rid rec :
  recover st rid = Some rec →
  cur_manifest st rid = Some (r_man rec) ∧
  load_segs st (visible (r_man rec)) = Some (r_deltas rec).
Proof. intros (H1 & H2 & _)%recover_parts. done. Qed.

Lemma state_of_replay r : state_of r = replay (map upd_of (r_deltas r)) (ck_state r).
Proof.
  unfold state_of, apply_recovered, ck_state. rewrite apply_deltas_replay.
  destruct (r_ck r); simpl; [|done]. by rewrite (right_id_L ∅ (∪)).
Qed.

Lemma visible_all m s : ck_covers m → In s (visible m) ↔ In s (m_segs m).
Proof.
  intros Hc. rewrite in_visible. unfold vis, ck_covers in *. destruct (m_ck m); [|tauto].
  split; [tauto|]. intros H. split; [done|]. by apply Hc.
Qed.

Lemma recovered_updates st rid rec :
  recover st rid = Some rec → ck_covers (r_man rec) →
  ∀ p, In p (map upd_of (r_deltas rec)) ↔ In p (listed_updates st (r_man rec)).
Proof.
  intros Hr Hc. apply recover_spec in Hr as [_ Hl]. unfold listed_updates.
  apply in_map_congr. intros d. rewrite (load_segs_in _ _ _ Hl), in_flat_map.
  by setoid_rewrite (visible_all _ _ Hc).
Qed.

Lemma recovered_replay st rid rec X us :
  recover st rid = Some rec → ck_covers (r_man rec) →
  (∀ p, In p us ↔ In p (listed_updates st (r_man rec) ++ X)) →
  coherent (map_to_list (ck_state rec) ++ us) →
  obs_kv (replay X (state_of rec)) = obs_kv (replay us (ck_state rec)).
Proof.
  intros Hr Hc Hset Hco. rewrite state_of_replay, <- replay_app. symmetry.
  apply replay_set_determined; [|done].
  intros p. rewrite Hset, !in_app_iff, (recovered_updates _ _ _ Hr Hc p). tauto.
Qed.

Lemma recover_complete_lemma st rid rec us :
  recover st rid = Some rec → ck_covers (r_man rec) →
  (∀ p, In p us ↔ In p (listed_updates st (r_man rec))) →
  coherent (map_to_list (ck_state rec) ++ us) →
  obs_kv (state_of rec) = obs_kv (replay us (ck_state rec)).
Proof.
  intros Hr Hc Hset Hco. apply (recovered_replay st rid rec [] us); try done.
  intros p. by rewrite app_nil_r.
Qed.

Lemma segment_order_independent_lemma (st : gmap name (sobj obj)) segs segs' ds ds' s0 :
  load_segs st segs = Some ds → load_segs st segs' = Some ds' →
  (∀ s, In s segs ↔ In s segs') →
  coherent (map_to_list s0 ++ map upd_of ds) →
  obs_kv (replay (map upd_of ds) s0) = obs_kv (replay (map upd_of ds') s0).
Proof.
  intros H1 H2 Hset Hco. apply replay_set_determined; [|done].
  apply in_map_congr. intros d. rewrite (load_segs_in _ _ _ H1), (load_segs_in _ _ _ H2).
  by setoid_rewrite Hset.
Qed.

Lemma repeat_idempotent_lemma rec :
  coherent (map_to_list (ck_state rec) ++ map upd_of (r_deltas rec)) →
  obs_kv (apply_recovered (r_ck rec) (r_deltas rec) (state_of rec)) = obs_kv (state_of rec).
Proof.
  (* a key of the checkpoint is reset to the checkpoint value and replayed as the first time;
     any other key sees its updates twice, which [mfoldo_set_determined] absorbs *)
  intros Hco. set (U := map upd_of (r_deltas rec)). set (c := ck_state rec).
  assert (HT : state_of rec = replay U c) by apply state_of_replay.
  unfold apply_recovered. rewrite apply_deltas_replay. fold U.
  set (base := match r_ck rec with Some c0 => c0 ∪ state_of rec | None => state_of rec end).
  assert (Hbase : ∀ k, base !! k = match c !! k with Some x => Some x | None => state_of rec !! k end).
  { intros k. unfold base, c, ck_state. destruct (r_ck rec) as [c0|]; simpl.
    - rewrite lookup_union. destruct (c0 !! k), (state_of rec !! k); done.
    - by rewrite lookup_empty. }
  apply map_eq. intros k. unfold obs_kv. rewrite !lookup_fmap, replay_lookup, Hbase.
  rewrite HT, replay_lookup. destruct (c !! k) as [x|] eqn:Hx; [done|].
  change (option_map obs (mfoldo (mfoldo None (valsk k U)) (valsk k U)) = option_map obs (mfoldo None (valsk k U))).
  rewrite <- mfoldo_app. eapply mfoldo_set_determined; [|by apply (coh_key k c U)|].
  - intros v. rewrite in_app_iff. tauto.
  - by rewrite Hx.
Qed.

(* the production start-up path and the repaired recover_with_wal replay the whole WAL:
   [recovered_replay] with X = the WAL *)
Definition wal_updates (wl : list (N * delta)) : list (list N * rvalue) := map (λ e, upd_of e.2) wl.

Lemma wal_nothing_dropped_lemma st rid rec wl us :
  recover st rid = Some rec → ck_covers (r_man rec) →
  (∀ p, In p us ↔ In p (listed_updates st (r_man rec) ++ wal_updates wl)) →
  coherent (map_to_list (ck_state rec) ++ us) →
  ∃ s, recover_prod st rid wl = Some s ∧ obs_kv s = obs_kv (replay us (ck_state rec)).
Proof.
  intros Hr Hc Hset Hco. unfold recover_prod. rewrite Hr. eexists; split; [done|].
  unfold apply_recovered. rewrite apply_deltas_replay, map_map.
  by apply (recovered_replay st rid).
Qed.

Lemma wal_after_0 wl : wal_after 0 wl = map snd wl.
Proof.
  unfold wal_after. f_equal. induction wl as [|e wl IH]; [done|].
  rewrite filter_cons. destruct (decide _) as [|Hn]; [by rewrite IH|].
  exfalso. apply Hn. apply Is_true_true. by destruct (fst e).
Qed.

Lemma recover_with_wal_complete_lemma v st rid rec wl us :
  v_wal_all v = true →
  recover st rid = Some rec → ck_covers (r_man rec) →
  (∀ p, In p us ↔ In p (listed_updates st (r_man rec) ++ wal_updates wl)) →
  coherent (map_to_list (ck_state rec) ++ us) →
  ∃ rw, recover_with_wal v st rid wl = Some rw ∧
        obs_kv (state_of rw) = obs_kv (replay us (ck_state rec)).
Proof.
  intros Hv Hr Hc Hset Hco. unfold recover_with_wal. rewrite Hr, Hv, wal_after_0.
  eexists; split; [done|]. unfold state_of at 1, apply_recovered. simpl.
  rewrite fold_left_app, apply_deltas_replay, map_map.
  by apply (recovered_replay st rid).
Qed.

Lemma update_absorbed_lemma s us p :
  coherent (map_to_list s ++ us) → In p us →
  ∃ x, replay us s !! p.1 = Some x ∧ obs (rv_merge x p.2) = obs x.
Proof.
  (* the slot of the key holds the fold of a coherent list that contains the update *)
  intros Hc%(coh_key p.1) Hp. rewrite replay_lookup.
  assert (Hin : In p.2 (valsk p.1 us)) by (apply in_valsk; by destruct p).
  destruct (s !! p.1) as [x|]; simpl in Hc.
  - eexists. split; [done|]. apply fold_absorbs; [done|by right].
  - destruct (valsk p.1 us) as [|v r]; [destruct Hin|]. eexists. split; [done|]. by apply fold_absorbs.
Qed.

Definition hw_store : gmap name (sobj obj) :=
  <[NMan := Whole (OMan (Manifest 1 1 [SegInfo 0 (NSeg 0) 1 100 10 10] None 1))]>
    (<[NSeg 0 := Whole (OSeg [dlt 1 7 10 2])]> ∅).
Definition hw_wal : list (N * delta) := [(3, dlt 2 8 3 1)].


Definition lww_of (v : rvalue) : option lww := match rv_crdt v with CLww r => Some r | _ => None end.
Definition pair_okb (a b : list N * rvalue) : bool :=
  negb (bool_decide (a.1 = b.1)) ||
  match lww_of a.2, lww_of b.2 with
  | Some x, Some y => negb (bool_decide (lw_ts x = lw_ts y)) || bool_decide (x = y)
  | _, _ => false
  end.
Definition coherentb (us : list (list N * rvalue)) : bool :=
  forallb (λ a, forallb (pair_okb a) us) us.
Lemma coherentb_sound us : coherentb us = true → coherent us.
Proof.
  unfold coherentb. rewrite forallb_forall. intros H a b Ha Hb Hk.
  specialize (H a Ha). rewrite forallb_forall in H. specialize (H b Hb).
  unfold pair_okb in H. rewrite bool_decide_true in H by done. simpl in H.
  unfold lww_of, Compatible in *.
  destruct (rv_crdt a.2) as [x| | | | |], (rv_crdt b.2) as [y| | | | |]; try discriminate.
  split; [done|]. unfold lww_compat. intros Hts.
  rewrite bool_decide_true in H by done. simpl in H. by apply bool_decide_eq_true in H.
Qed.

Definition ex_ck : gmap (list N) rvalue := {[ [1] := lwwv 1 5 1 ]}.
Definition ex_store : gmap name (sobj obj) :=
  <[NMan := Whole (OMan (Manifest 3 1 [SegInfo 4 (NSeg 4) 2 100 20 1000; SegInfo 5 (NSeg 5) 2 100 7 9]
                                  (Some (CkInfo (NCk 77) 77 1 3)) 6))]>
    (<[NCk 77 := Whole (OCk ex_ck)]>
    (<[NSeg 4 := Whole (OSeg [dlt 1 2 1000 3; dlt 2 3 20 2])]>
    (<[NSeg 5 := Whole (OSeg [dlt 1 4 7 1; dlt 2 3 20 2 (* duplicate *); dlt 2 5 9 1])]> ∅))).
Definition ex_man : manifest :=
  Manifest 3 1 [SegInfo 4 (NSeg 4) 2 100 20 1000; SegInfo 5 (NSeg 5) 2 100 7 9]
           (Some (CkInfo (NCk 77) 77 1 3)) 6.
Definition ex_wal : list (N * delta) := [(6, dlt 1 6 6 1); (8, dlt 3 9 8 1)].
Definition ex_updates : list (list N * rvalue) :=
  [([3], lwwv 9 8 1); ([2], lwwv 5 9 1); ([1], lwwv 6 6 1); ([2], lwwv 3 20 2);
   ([1], lwwv 4 7 1); ([1], lwwv 2 1000 3); ([1], lwwv 6 6 1)].

Lemma ex_recover :
  recover ex_store 1 =
  Some (Recovered ex_man (Some ex_ck)
                  [dlt 1 4 7 1; dlt 2 3 20 2; dlt 2 5 9 1; dlt 1 2 1000 3; dlt 2 3 20 2]).
Proof. vm_compute. reflexivity. Qed.

Lemma example_recovery :
  match recover ex_store 1 with
  | Some rec =>
      ck_covers (r_man rec) ∧ ck_state rec = ex_ck ∧
      map sig_of (r_deltas rec) = [(1, 7); (2, 20); (2, 9); (1, 1000); (2, 20)] ∧
      (∀ p, In p ex_updates ↔ In p (listed_updates ex_store (r_man rec) ++ wal_updates ex_wal)) ∧
      coherent (map_to_list (ck_state rec) ++ ex_updates)
  | None => False
  end.
Proof.
  rewrite ex_recover. split; [|split; [done|split; [done|split]]].
  - intros s [<-|[<-|[]]]; simpl; lia.
  - assert (E : listed_updates ex_store ex_man ++ wal_updates ex_wal =
      [([1], lwwv 2 1000 3); ([2], lwwv 3 20 2); ([1], lwwv 4 7 1); ([2], lwwv 3 20 2);
       ([2], lwwv 5 9 1); ([1], lwwv 6 6 1); ([3], lwwv 9 8 1)]) by (vm_compute; reflexivity).
    simpl r_man. rewrite E. unfold ex_updates. simpl. intuition.
  - apply coherentb_sound. vm_compute. reflexivity.
Qed.
