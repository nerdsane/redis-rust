(* A fold of an operation that is associative, commutative and idempotent on a class closed
   under it depends only on the SET of elements folded - the algebraic core of strong
   eventual consistency: replicas that have incorporated the same set of updates, in any
   order and with any repetition, are in the same state.  The laws may hold up to an
   equivalence that the operation respects (observable equality of replicated values), and
   so does the conclusion. *)
From Coq Require Import List Morphisms RelationClasses Setoid.
Import ListNotations.

Lemma fold_closed {A : Type} (f : A -> A -> A) (C : A -> Prop) :
  (forall a b, C a -> C b -> C (f a b)) ->
  forall xs x, C x -> Forall C xs -> C (fold_left f xs x).
Proof.
  intros closed. induction xs as [|a xs IH]; intros x Cx Hxs; simpl; [exact Cx|].
  inversion Hxs; subst. apply IH; auto.
Qed.

Lemma fold_closed1 {A : Type} (f : A -> A -> A) (C : A -> Prop) :
  (forall a b, C a -> C b -> C (f a b)) ->
  forall x xs, Forall C (x :: xs) -> C (fold_left f xs x).
Proof. intros closed x xs Hxs. inversion Hxs; subst. apply fold_closed; assumption. Qed.

Record semilattice {A : Type} {R : relation A} {f : A -> A -> A} {C : A -> Prop} : Prop := {
  sl_closed : forall a b, C a -> C b -> C (f a b);
  sl_idem : forall a, C a -> R (f a a) a;
  sl_comm : forall a b, C a -> C b -> R (f a b) (f b a);
  sl_assoc : forall a b c, C a -> C b -> C c -> R (f a (f b c)) (f (f a b) c) }.
Arguments semilattice {A} R f C.

Section fold.
  Context {A : Type} (R : relation A) `{!Equivalence R}.
  Context (f : A -> A -> A) `{!Proper (R ==> R ==> R) f} (C : A -> Prop).
  Context (SL : semilattice R f C).
  Let closed := sl_closed SL.
  Let idem := sl_idem SL.
  Let comm := sl_comm SL.
  Let assoc := sl_assoc SL.

  Definition sl_le (y z : A) : Prop := R (f z y) z.

  Lemma sl_le_trans x y z : C x -> C y -> C z -> sl_le x y -> sl_le y z -> sl_le x z.
  Proof.
    unfold sl_le. intros Cx Cy Cz Hxy Hyz.
    rewrite <- Hyz at 1. rewrite <- assoc by assumption. rewrite Hxy. exact Hyz.
  Qed.

  Lemma sl_le_join_l x a : C x -> C a -> sl_le x (f x a).
  Proof.
    unfold sl_le. intros Cx Ca.
    rewrite (comm (f x a) x) by auto. rewrite assoc by auto. rewrite idem by auto. reflexivity.
  Qed.

  Lemma sl_le_join_r x a : C x -> C a -> sl_le a (f x a).
  Proof.
    unfold sl_le. intros Cx Ca. rewrite <- assoc by auto. rewrite idem by auto. reflexivity.
  Qed.

  Lemma sl_le_lub x a z : C x -> C a -> C z -> sl_le x z -> sl_le a z -> sl_le (f x a) z.
  Proof.
    unfold sl_le. intros Cx Ca Cz Hx Ha. rewrite assoc by auto. rewrite Hx. exact Ha.
  Qed.

  Lemma sl_le_antisym x y : C x -> C y -> sl_le x y -> sl_le y x -> R x y.
  Proof.
    unfold sl_le. intros Cx Cy Hxy Hyx. rewrite <- Hyx, comm by auto. exact Hxy.
  Qed.

  Lemma fold_upper xs : forall x y, Forall C (x :: xs) -> In y (x :: xs) -> sl_le y (fold_left f xs x).
  Proof.
    induction xs as [|a xs IH]; intros x y Hxs Hy; simpl.
    - destruct Hy as [<-|[]]. apply idem. inversion Hxs; assumption.
    - inversion Hxs as [|? ? Cx Hxs']; subst. inversion Hxs' as [|? ? Ca Hxs'']; subst.
      assert (Hxa : Forall C (f x a :: xs)) by auto.
      assert (Hup : sl_le (f x a) (fold_left f xs (f x a))) by (apply IH; [exact Hxa|left; reflexivity]).
      assert (Cr : C (fold_left f xs (f x a))) by (apply fold_closed1; assumption).
      destruct Hy as [<-|[<-|Hy]].
      + apply (sl_le_trans x (f x a)); auto. apply sl_le_join_l; auto.
      + apply (sl_le_trans a (f x a)); auto. apply sl_le_join_r; auto.
      + apply IH; [exact Hxa|right; exact Hy].
  Qed.

  Lemma fold_least xs : forall x z, Forall C (x :: xs) -> C z ->
    (forall y, In y (x :: xs) -> sl_le y z) -> sl_le (fold_left f xs x) z.
  Proof.
    induction xs as [|a xs IH]; intros x z Hxs Cz Hz; simpl.
    - apply Hz. left; reflexivity.
    - inversion Hxs as [|? ? Cx Hxs']; subst. inversion Hxs' as [|? ? Ca Hxs'']; subst.
      apply IH; auto. intros y [<-|Hy].
      + apply sl_le_lub; auto; apply Hz; simpl; auto.
      + apply Hz. right; right; exact Hy.
  Qed.

  Lemma fold_mono x xs y ys :
    Forall C (x :: xs) -> Forall C (y :: ys) ->
    (forall e, In e (y :: ys) -> In e (x :: xs)) -> sl_le (fold_left f ys y) (fold_left f xs x).
  Proof.
    intros Hxs Hys Hsub. apply fold_least; [exact Hys| |].
    - apply fold_closed1; assumption.
    - intros e He. apply fold_upper; auto.
  Qed.

  Theorem fold_set_equiv x xs y ys :
    Forall C (x :: xs) -> Forall C (y :: ys) ->
    (forall e, In e (x :: xs) <-> In e (y :: ys)) ->
    R (fold_left f xs x) (fold_left f ys y).
  Proof.
    intros Hxs Hys Hset.
    apply sl_le_antisym.
    - apply fold_closed1; assumption.
    - apply fold_closed1; assumption.
    - apply fold_mono; auto. intros e. apply Hset.
    - apply fold_mono; auto. intros e. apply Hset.
  Qed.
End fold.

Theorem fold_set_eq {A : Type} (f : A -> A -> A) (C : A -> Prop) :
  (forall a b, C a -> C b -> C (f a b)) -> (forall a, C a -> f a a = a) ->
  (forall a b, C a -> C b -> f a b = f b a) ->
  (forall a b c, C a -> C b -> C c -> f a (f b c) = f (f a b) c) ->
  forall x xs y ys, Forall C (x :: xs) -> Forall C (y :: ys) ->
  (forall e, In e (x :: xs) <-> In e (y :: ys)) ->
  fold_left f xs x = fold_left f ys y.
Proof.
  intros H1 H2 H3 H4. apply (fold_set_equiv eq f). split; assumption.
Qed.
