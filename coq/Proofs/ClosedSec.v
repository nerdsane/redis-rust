(* Closed-system form of C06's convergence theorem: the hypotheses are conditions on the
   client inputs and on the run (no clock overflow), nothing about the deltas themselves. *)
From stdpp Require Import gmap.
From Coq Require Import NArith Lia.
From RV Require Import Lib.Hex Model.Crdt Proofs.CrdtProofs Model.ShardState
  Proofs.ShardStateProofs Model.Cluster Proofs.ClusterProofs Proofs.ServeProofs Proofs.UniqueStamps.
Local Open Scope N_scope.

Definition regs_list (v : rvalue) : list lww :=
  match rv_crdt v with
  | CLww r => [r]
  | CHash h => map snd (map_to_list h)
  | _ => []
  end.

Lemma regs_list_spec r v : In r (regs_list v) ↔ reg_in r v.
Proof.
  unfold regs_list, reg_in. destruct (rv_crdt v) as [r'| | | | |h]; simpl; try tauto.
  - split; [intros [->|[]]; done|intros ->; by left].
  - rewrite <- elem_of_list_In, elem_of_list_fmap. split.
    + intros ([f x] & -> & Hin). apply elem_of_map_to_list in Hin. eauto.
    + intros [f Hf]. exists (f, r). split; [done|]. by apply elem_of_map_to_list.
Qed.

Definition all_regs (log : list (nat * list N * rvalue)) : list lww :=
  concat (map (λ e, regs_list e.2) log).

Lemma all_regs_spec log r : In r (all_regs log) ↔ log_reg log r.
Proof.
  unfold all_regs, log_reg. rewrite in_concat. split.
  - intros (l & Hl & Hr). apply in_map_iff in Hl as ([[o k] d] & <- & Hin). simpl in Hr.
    exists o, k, d. split; [done|]. by apply regs_list_spec.
  - intros (o & k & d & Hin & Hr). exists (regs_list d). split; [|by apply regs_list_spec].
    apply in_map_iff. exists (o, k, d). done.
Qed.

(* the register a stamp was used for, read off the log *)
Definition U_of (log : list (nat * list N * rvalue)) (st : stamp) : option lww :=
  head (filter (λ r, lw_ts r = st) (all_regs log)).

Lemma U_of_spec log r :
  (∀ r r', log_reg log r → log_reg log r' → lw_ts r = lw_ts r' → r = r') →
  log_reg log r → U_of log (lw_ts r) = Some r.
Proof.
  intros Hfun Hr. unfold U_of.
  destruct (filter (λ r0, lw_ts r0 = lw_ts r) (all_regs log)) as [|r0 l] eqn:Hf.
  - exfalso. assert (Hin : r ∈ filter (λ r0, lw_ts r0 = lw_ts r) (all_regs log)).
    { apply elem_of_list_filter. split; [done|]. apply elem_of_list_In. by apply all_regs_spec. }
    rewrite Hf in Hin. by apply elem_of_nil in Hin.
  - simpl. f_equal. assert (Hin : r0 ∈ filter (λ r0, lw_ts r0 = lw_ts r) (all_regs log)) by (rewrite Hf; left).
    apply elem_of_list_filter in Hin as [Hts Hin]. apply elem_of_list_In, all_regs_spec in Hin.
    by apply Hfun.
Qed.

Lemma valid_run_deliveries K evs : ∀ c log, valid_run K c log evs → deliveries_from_log c log evs.
Proof.
  induction evs as [|e evs IH]; intros c log Hv; simpl in *; [done|].
  destruct Hv as [He Hv]. split; [destruct e; done|by apply IH].
Qed.

Lemma log_good K c log :
  GInv c log → (∀ o k d, In (o, k, d) log → val_ok K k d) →
  ∀ o k d, In (o, k, d) log → good (U_of log) K k d.
Proof.
  intros HG Hlogk o k d Ho. destruct (g_log HG o k d Ho) as [Hwf Hpl].
  assert (Hreg : ∀ r, reg_in r d → U_of log (lw_ts r) = Some r).
  { intros r Hr. apply U_of_spec; [apply (g_unique HG)|]. by exists o, k, d. }
  split; [|done]. unfold in_class, crdt_respects, reg_in in *.
  destruct (Hlogk o k d Ho) as [(HK' & r & Hc & _)|(HK' & h & Hc & _)]; rewrite Hc in *.
  - split_and!; [done|by apply Hreg|done].
  - split_and!; [done| |done]. intros f r Hf. apply Hreg. eauto.
Qed.

Lemma hist_good_of_log U K log i n :
  node_good log i n → (∀ o k d, In (o, k, d) log → good U K k d) → hist_good U K n.
Proof.
  intros [Hok _] Hl k. apply Forall_forall. intros d Hd.
  apply elem_of_list_In in Hd. destruct (ok_hist Hok k d Hd) as [o Ho]. by apply (Hl o).
Qed.

Theorem sec_closed_lemma (K : list N → N) :
  (∀ k, K k = 0 ∨ K k = 5) →
  ∀ n evs i j ni nj k,
  valid_run K (cluster_init n) [] evs →
  let c := (crun (cluster_init n) [] evs).1 in
  no_ovf c → c !! i = Some ni → c !! j = Some nj →
  same_set (hist_of ni k) (hist_of nj k) →
  sh_keys (n_sh ni) !! k = sh_keys (n_sh nj) !! k.
Proof.
  intros HK n evs i j ni nj k Hv c Hno Hi Hj Hs.
  pose proof (crun_ginv evs _ _ (GInv_init n) (valid_run_deliveries K evs _ _ Hv) Hno) as HG.
  pose proof (crun_cinv K evs _ _ (CInv_init K n) Hv) as [_ Hlogk].
  destruct (crun (cluster_init n) [] evs) as [c' log] eqn:Hr. cbn [fst snd] in *. subst c.
  apply (sec_lemma (U_of log) K HK n evs c' log i j ni nj k Hr); auto.
  intros i0 n0 Hi0. split; [|by apply (Hno i0)].
  apply (hist_good_of_log _ K log i0); [by apply (g_nodes HG)|by apply (log_good K c')].
Qed.
