(* Lemmas about Model/Crdt.v: the stamp order is a strict total order; every merge
   is idempotent, commutative (under Compatible) and associative (same kind); what [obs]
   normalises away (zero counters, empty tag sets) is characterised pointwise. *)
From stdpp Require Import gmap.
From Coq Require Import NArith Lia.
From RV Require Import Lib.Hex Model.Crdt.
Local Open Scope N_scope.

Lemma stamp_ltb_spec a b :
  stamp_ltb a b = true ↔
  st_time a < st_time b ∨ (st_time a = st_time b ∧ st_rid a < st_rid b).
Proof.
  unfold stamp_ltb. rewrite orb_true_iff, andb_true_iff, !N.ltb_lt, N.eqb_eq. tauto.
Qed.

Lemma stamp_ltb_irrefl a : stamp_ltb a a = false.
Proof. rewrite <- not_true_iff_false, stamp_ltb_spec. lia. Qed.

Lemma stamp_ltb_trans a b c :
  stamp_ltb a b = true → stamp_ltb b c = true → stamp_ltb a c = true.
Proof. rewrite !stamp_ltb_spec. lia. Qed.

Lemma stamp_ltb_asym a b : stamp_ltb a b = true → stamp_ltb b a = false.
Proof. rewrite <- not_true_iff_false, !stamp_ltb_spec. lia. Qed.

Lemma stamp_trichotomy a b :
  stamp_ltb a b = true ∨ a = b ∨ stamp_ltb b a = true.
Proof.
  rewrite !stamp_ltb_spec. destruct a as [ta ra], b as [tb rb]; simpl.
  destruct (N.lt_trichotomy ta tb) as [?|[->|?]]; [lia| |lia].
  destruct (N.lt_trichotomy ra rb) as [?|[->|?]]; [lia| |lia]. right; left; reflexivity.
Qed.

Lemma stamp_total_false a b :
  stamp_ltb a b = false → stamp_ltb b a = false → a = b.
Proof. intros H1 H2. destruct (stamp_trichotomy a b) as [?|[?|?]]; congruence. Qed.

Lemma stamp_ltb_flip a b : a ≠ b → stamp_ltb b a = negb (stamp_ltb a b).
Proof.
  intros Hne. destruct (stamp_trichotomy a b) as [H|[H|H]]; [|done|];
    by rewrite H, (stamp_ltb_asym _ _ H).
Qed.

Lemma stamp_ltb_false_trans a b c :
  stamp_ltb a b = false → stamp_ltb b c = false → stamp_ltb a c = false.
Proof. rewrite <- !not_true_iff_false, !stamp_ltb_spec. lia. Qed.

Section maxleft.
  Context {A : Type} (key : A → stamp).
  Definition maxl (a b : A) : A := if stamp_ltb (key a) (key b) then b else a.

  Lemma maxl_idem a : maxl a a = a.
  Proof. unfold maxl. by rewrite stamp_ltb_irrefl. Qed.

  Lemma maxl_assoc a b c : maxl a (maxl b c) = maxl (maxl a b) c.
  Proof.
    unfold maxl.
    destruct (stamp_ltb (key b) (key c)) eqn:Hbc, (stamp_ltb (key a) (key b)) eqn:Hab;
      rewrite ?Hbc, ?Hab; try reflexivity.
    - by rewrite (stamp_ltb_trans _ _ _ Hab Hbc).
    - by rewrite (stamp_ltb_false_trans _ _ _ Hab Hbc).
  Qed.

  Lemma maxl_comm a b : (key a = key b → a = b) → maxl a b = maxl b a.
  Proof.
    intros Hc. unfold maxl.
    destruct (decide (key a = key b)) as [E|E]; [by rewrite (Hc E)|].
    rewrite (stamp_ltb_flip _ _ E). by destruct (stamp_ltb (key a) (key b)).
  Qed.
End maxleft.

Lemma stamp_merge_idem a : stamp_merge a a = a.
Proof. apply (maxl_idem id). Qed.
Lemma stamp_merge_assoc a b c :
  stamp_merge a (stamp_merge b c) = stamp_merge (stamp_merge a b) c.
Proof. apply (maxl_assoc id). Qed.
Lemma stamp_merge_comm a b : stamp_merge a b = stamp_merge b a.
Proof. apply (maxl_comm id). auto. Qed.

Lemma lww_merge_idem a : lww_merge a a = a.
Proof. apply (maxl_idem lw_ts). Qed.
Lemma lww_merge_assoc a b c : lww_merge a (lww_merge b c) = lww_merge (lww_merge a b) c.
Proof. apply (maxl_assoc lw_ts). Qed.
Lemma lww_merge_comm a b : lww_compat a b → lww_merge a b = lww_merge b a.
Proof. apply (maxl_comm lw_ts). Qed.
Lemma lww_merge_cases a b : lww_merge a b = a ∨ lww_merge a b = b.
Proof. unfold lww_merge. destruct (stamp_ltb _ _); auto. Qed.

Lemma union_with_assoc `{Countable K} {A : Type} (f : A → A → A) :
  (∀ x y z, f x (f y z) = f (f x y) z) →
  ∀ a b c : gmap K A,
    union_with (λ x y, Some (f x y)) a (union_with (λ x y, Some (f x y)) b c)
    = union_with (λ x y, Some (f x y)) (union_with (λ x y, Some (f x y)) a b) c.
Proof.
  intros Hf a b c. apply map_eq; intros i. rewrite !lookup_union_with.
  destruct (a !! i), (b !! i), (c !! i); simpl; try reflexivity. by rewrite Hf.
Qed.

Lemma nmap_merge_idem a : nmap_merge a a = a.
Proof. apply union_with_idemp. intros. by rewrite N.max_id. Qed.
Lemma nmap_merge_comm a b : nmap_merge a b = nmap_merge b a.
Proof. apply union_with_comm. intros. by rewrite N.max_comm. Qed.
Lemma nmap_merge_assoc a b c :
  nmap_merge a (nmap_merge b c) = nmap_merge (nmap_merge a b) c.
Proof. apply (union_with_assoc N.max). intros. apply N.max_assoc. Qed.

Lemma pn_merge_idem a : pn_merge a a = a.
Proof. destruct a. unfold pn_merge; simpl. by rewrite !nmap_merge_idem. Qed.
Lemma pn_merge_comm a b : pn_merge a b = pn_merge b a.
Proof. unfold pn_merge. by rewrite (nmap_merge_comm (pn_pos a)), (nmap_merge_comm (pn_neg a)). Qed.
Lemma pn_merge_assoc a b c : pn_merge a (pn_merge b c) = pn_merge (pn_merge a b) c.
Proof. unfold pn_merge; simpl. by rewrite !nmap_merge_assoc. Qed.

Lemma hash_merge_idem a : hash_merge a a = a.
Proof. apply union_with_idemp. intros. by rewrite lww_merge_idem. Qed.
Lemma hash_merge_assoc a b c :
  hash_merge a (hash_merge b c) = hash_merge (hash_merge a b) c.
Proof. apply (union_with_assoc lww_merge). apply lww_merge_assoc. Qed.
Lemma hash_merge_comm a b :
  (∀ f r1 r2, a !! f = Some r1 → b !! f = Some r2 → lww_compat r1 r2) →
  hash_merge a b = hash_merge b a.
Proof. intros Hc. apply union_with_comm. intros i x y Hx Hy. f_equal. apply lww_merge_comm. eauto. Qed.
Lemma hash_merge_pick a b f r :
  hash_merge a b !! f = Some r → a !! f = Some r ∨ b !! f = Some r.
Proof.
  unfold hash_merge. rewrite lookup_union_with.
  destruct (a !! f) as [x|], (b !! f) as [y|]; simpl; intros [= <-]; auto.
  destruct (lww_merge_cases x y) as [-> | ->]; auto.
Qed.

(* [nz] and the ORSet normalisation both drop the entries that hold a default value
   (0, ∅), and the merges combine entries with an operation of which that value is the
   unit (max, ∪).  Read through [default d (m !! i)] such maps are total functions:
   filtering is invisible, two maps have the same filtered form iff they agree as functions,
   and the merge is the operation pointwise. *)
Section default_lookup.
  Context `{Countable K} {A : Type} `{EqDecision A} (d : A).
  Context (P : K * A → Prop) `{!∀ kv, Decision (P kv)} (HP : ∀ kv, P kv ↔ kv.2 ≠ d).
  Implicit Types m : gmap K A.

  Lemma filter_dflt_Some m i x : filter P m !! i = Some x ↔ default d (m !! i) = x ∧ x ≠ d.
  Proof. rewrite map_filter_lookup_Some, HP. destruct (m !! i); simpl; intuition congruence. Qed.

  Lemma dflt_filter m i : default d (filter P m !! i) = default d (m !! i).
  Proof.
    destruct (filter P m !! i) as [x|] eqn:E; simpl.
    - by apply filter_dflt_Some in E as [-> _].
    - destruct (decide (default d (m !! i) = d)) as [->|Hd]; [done|].
      by rewrite (proj2 (filter_dflt_Some m i _) (conj eq_refl Hd)) in E.
  Qed.

  Lemma filter_eq_dflt m m' :
    filter P m = filter P m' ↔ ∀ i, default d (m !! i) = default d (m' !! i).
  Proof.
    split.
    - intros E i. by rewrite <- (dflt_filter m), <- (dflt_filter m'), E.
    - intros E. apply map_eq; intros i. apply option_eq; intros x.
      by rewrite !filter_dflt_Some, E.
  Qed.

  Lemma dflt_union_with (f : A → A → A) m m' i :
    (∀ x, f d x = x) → (∀ x, f x d = x) →
    default d (union_with (λ x y, Some (f x y)) m m' !! i)
    = f (default d (m !! i)) (default d (m' !! i)).
  Proof.
    intros Hl Hr. rewrite lookup_union_with.
    destruct (m !! i), (m' !! i); simpl; by rewrite ?Hl, ?Hr.
  Qed.
End default_lookup.

Definition count_at (m : gmap N N) (i : N) : N := default 0 (m !! i).

Lemma nz_eq_iff (m m' : gmap N N) : nz m = nz m' ↔ ∀ i, count_at m i = count_at m' i.
Proof. by apply (filter_eq_dflt 0). Qed.
Lemma count_at_merge a b i : count_at (nmap_merge a b) i = N.max (count_at a i) (count_at b i).
Proof. apply (dflt_union_with 0 N.max); lia. Qed.

Definition tags_at (m : tagmap) (e : list N) : gset (N * N) := default ∅ (m !! e).

Lemma nonempty_tags_eq_iff (m m' : tagmap) :
  filter nonempty_tags m = filter nonempty_tags m' ↔ ∀ e, tags_at m e = tags_at m' e.
Proof. by apply (filter_eq_dflt ∅). Qed.
Lemma tags_at_filter m e : tags_at (filter nonempty_tags m) e = tags_at m e.
Proof. by apply (dflt_filter ∅). Qed.
Lemma tags_at_union a b e : tags_at (tags_union a b) e = tags_at a e ∪ tags_at b e.
Proof. apply (dflt_union_with ∅ (∪)); intros; [apply (left_id_L ∅ (∪))|apply (right_id_L ∅ (∪))]. Qed.

(* ORSet::merge on the element maps is [tags_union] followed by [filter nonempty_tags]; in
   the idempotence law the outer filter is [or_norm]'s, in associativity the merge's own. *)
Lemma tags_merge_idem_norm (m : tagmap) :
  filter nonempty_tags (filter nonempty_tags (tags_union m m)) = filter nonempty_tags m.
Proof.
  apply nonempty_tags_eq_iff; intros e. rewrite tags_at_filter, tags_at_union. apply (idemp_L (∪)).
Qed.

Lemma tags_union_comm (a b : tagmap) : tags_union a b = tags_union b a.
Proof. apply union_with_comm. intros. f_equal. apply (comm_L (∪)). Qed.

Lemma tags_merge_assoc (a b c : tagmap) :
  filter nonempty_tags (tags_union a (filter nonempty_tags (tags_union b c)))
  = filter nonempty_tags (tags_union (filter nonempty_tags (tags_union a b)) c).
Proof.
  apply nonempty_tags_eq_iff; intros e.
  rewrite !tags_at_union, !tags_at_filter, !tags_at_union. apply (assoc_L (∪)).
Qed.

Lemma orset_merge_comm a b : orset_merge a b = orset_merge b a.
Proof. unfold orset_merge. by rewrite tags_union_comm, nmap_merge_comm. Qed.
Lemma orset_merge_assoc a b c :
  orset_merge a (orset_merge b c) = orset_merge (orset_merge a b) c.
Proof. unfold orset_merge; simpl. by rewrite tags_merge_assoc, nmap_merge_assoc. Qed.
Lemma orset_merge_idem_obs a : or_norm (orset_merge a a) = or_norm a.
Proof. unfold or_norm, orset_merge; simpl. by rewrite tags_merge_idem_norm, nmap_merge_idem. Qed.

Section opt.
  Context {A : Type} (f : A → A → A).
  Lemma opt_merge_idem a : (∀ x, f x x = x) → opt_merge f a a = a.
  Proof. intros Hf. destruct a; simpl; by rewrite ?Hf. Qed.
  Lemma opt_merge_comm a b : (∀ x y, f x y = f y x) → opt_merge f a b = opt_merge f b a.
  Proof. intros Hf. destruct a, b; simpl; by rewrite ?(Hf a). Qed.
  Lemma opt_merge_assoc a b c :
    (∀ x y z, f x (f y z) = f (f x y) z) →
    opt_merge f a (opt_merge f b c) = opt_merge f (opt_merge f a b) c.
  Proof. intros Hf. destruct a, b, c; simpl; by rewrite ?Hf. Qed.
End opt.

(* The laws hold field by field; for the CRDT field the outer stamps matter only when the
   kinds differ. *)
Lemma merge_with_ts_idem c t t' : obs_crdt (merge_with_ts c c t t') = obs_crdt c.
Proof.
  destruct c; unfold merge_with_ts; cbn [try_merge].
  - by rewrite lww_merge_idem.
  - by rewrite nmap_merge_idem.
  - by rewrite pn_merge_idem.
  - by rewrite (idemp_L (∪)).
  - simpl. by rewrite orset_merge_idem_obs.
  - by rewrite hash_merge_idem.
Qed.

Lemma merge_with_ts_assoc a b c ta tb tc tab tbc :
  kind a = kind b → kind b = kind c →
  merge_with_ts a (merge_with_ts b c tb tc) ta tbc
  = merge_with_ts (merge_with_ts a b ta tb) c tab tc.
Proof.
  intros Hab Hbc. destruct a, b; try discriminate Hab; destruct c; try discriminate Hbc;
    unfold merge_with_ts; simpl; f_equal.
  - apply lww_merge_assoc.
  - apply nmap_merge_assoc.
  - apply pn_merge_assoc.
  - apply (assoc_L (∪)).
  - apply orset_merge_assoc.
  - apply hash_merge_assoc.
Qed.

Lemma rv_merge_idem a : obs (rv_merge a a) = obs a.
Proof.
  unfold obs, rv_merge; simpl. f_equal.
  - apply merge_with_ts_idem.
  - by rewrite opt_merge_idem by apply nmap_merge_idem.
  - apply opt_merge_idem, N.max_id.
  - apply stamp_merge_idem.
  - apply opt_merge_idem, N.max_id.
Qed.

Lemma rv_merge_comm a b : Compatible a b → rv_merge a b = rv_merge b a.
Proof.
  intros Hc. unfold rv_merge. f_equal.
  - unfold Compatible in Hc. unfold merge_with_ts.
    (* the 30 pairs of different kinds: equal kinds are impossible, so [Compatible] says the
       outer stamps differ, and then the later one wins on both sides *)
    destruct (rv_crdt a), (rv_crdt b); simpl in *;
      try (destruct Hc as [[=]|Hne]; rewrite (stamp_ltb_flip _ _ Hne);
           by destruct (stamp_ltb (rv_ts a) (rv_ts b))).
    + by rewrite lww_merge_comm.
    + by rewrite nmap_merge_comm.
    + by rewrite pn_merge_comm.
    + by rewrite (comm_L (∪)).
    + by rewrite orset_merge_comm.
    + by rewrite hash_merge_comm.
  - apply opt_merge_comm, nmap_merge_comm.
  - apply opt_merge_comm, N.max_comm.
  - apply stamp_merge_comm.
  - apply opt_merge_comm, N.max_comm.
Qed.

Lemma rv_merge_assoc a b c :
  SameKind3 a b c → rv_merge a (rv_merge b c) = rv_merge (rv_merge a b) c.
Proof.
  intros [Hab Hbc]. unfold rv_merge; simpl. f_equal.
  - by apply merge_with_ts_assoc.
  - apply opt_merge_assoc, nmap_merge_assoc.
  - apply opt_merge_assoc, N.max_assoc.
  - apply stamp_merge_assoc.
  - apply opt_merge_assoc, N.max_assoc.
Qed.

Lemma not_MixedKinds_SameKind3 a b c : ¬ MixedKinds a b c → SameKind3 a b c.
Proof. unfold MixedKinds, SameKind3. apply dec_stable. Qed.

(* Mixed kinds: the witness of finding C07-mixed-assoc (DESIGN §4 no. 6):
   a = LWW "a" @ (5,1);  b = Hash{f1} @ (3,2);  c = Hash{f2} @ (7,3). *)
Definition wit_a : rvalue :=
  RV (CLww (Lww (Some [97]) (Stamp 5 1) false)) None None (Stamp 5 1) None.
Definition wit_b : rvalue :=
  RV (CHash {[ [102;49] := Lww (Some [120]) (Stamp 3 2) false ]}) None None (Stamp 3 2) None.
Definition wit_c : rvalue :=
  RV (CHash {[ [102;50] := Lww (Some [121]) (Stamp 7 3) false ]}) None None (Stamp 7 3) None.

Lemma rv_merge_assoc_mixed_witness :
  MixedKinds wit_a wit_b wit_c ∧
  Compatible wit_a wit_b ∧ Compatible wit_b wit_c ∧ Compatible wit_a wit_c ∧
  obs (rv_merge wit_a (rv_merge wit_b wit_c)) ≠ obs (rv_merge (rv_merge wit_a wit_b) wit_c).
Proof.
  split; [|split; [|split; [|split]]].
  - intros [H _]. vm_compute in H. discriminate.
  - right. vm_compute. discriminate.
  - intros f r1 r2. unfold wit_b, wit_c; simpl.
    intros H1 H2. apply lookup_singleton_Some in H1 as [<- <-].
    apply lookup_singleton_Some in H2 as [Hf _]. discriminate Hf.
  - right. vm_compute. discriminate.
  - (* left: Hash{f1,f2}; right: Hash{f2} *)
    intros H.
    apply (f_equal (λ v, match rv_crdt v with CHash h => h !! [102;49] | _ => None end)) in H.
    vm_compute in H. discriminate.
Qed.

Definition ex_h1 : rvalue :=
  RV (CHash {[ [102] := Lww (Some [1]) (Stamp 4 1) false ]}) (Some {[ 1 := 2 ]}) (Some 10) (Stamp 4 1) None.
Definition ex_h2 : rvalue :=
  RV (CHash {[ [102] := Lww None (Stamp 4 2) true ]}) None (Some 20) (Stamp 4 2) (Some 3).
Lemma ex_hash_triple : SameKind3 ex_h1 ex_h2 ex_h1 ∧ Compatible ex_h1 ex_h2 ∧
  rv_merge ex_h1 ex_h2 ≠ ex_h1.
Proof.
  split; [by vm_compute|]. split.
  - intros f r1 r2. unfold ex_h1, ex_h2; simpl. intros H1 H2.
    apply lookup_singleton_Some in H1 as [_ <-]. apply lookup_singleton_Some in H2 as [_ <-].
    intros Hts. vm_compute in Hts. discriminate.
  - intros H. apply (f_equal rv_ts) in H. vm_compute in H. discriminate.
Qed.
