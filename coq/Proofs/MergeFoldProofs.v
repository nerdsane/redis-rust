(* Algebra used by C11 and C13: ReplicatedValue::merge respects the observable projection
   (obs is a congruence), same-kind merges preserve kind and compatibility, and the fold
   of a non-empty list of pairwise compatible same-kind values under merge depends, on obs,
   only on the set of its elements (any order, any multiplicity). *)
From stdpp Require Import gmap.
From Coq Require Import NArith Lia.
From RV Require Import Lib.Hex Model.Crdt Proofs.CrdtProofs Proofs.SemilatticeFold.
Local Open Scope N_scope.

Notation kd v := (kind (rv_crdt v)).

Lemma nz_merge_congr a a' b b' :
  nz a = nz a' → nz b = nz b' → nz (nmap_merge a b) = nz (nmap_merge a' b').
Proof.
  rewrite !nz_eq_iff. intros Ha Hb i. by rewrite !count_at_merge, Ha, Hb.
Qed.

Lemma opt_nz_merge_congr a a' b b' :
  option_map nz a = option_map nz a' → option_map nz b = option_map nz b' →
  option_map nz (opt_merge nmap_merge a b) = option_map nz (opt_merge nmap_merge a' b').
Proof.
  destruct a, a', b, b'; simpl; intros [=] [=]; f_equal; try done.
  by apply nz_merge_congr.
Qed.

Lemma or_norm_eq_iff s s' :
  or_norm s = or_norm s' ↔
  (∀ e, tags_at (or_elems s) e = tags_at (or_elems s') e) ∧ nz (or_seq s) = nz (or_seq s').
Proof.
  unfold or_norm. rewrite <- nonempty_tags_eq_iff. split; [intros [= H1 H2]; auto|intros [-> ->]; done].
Qed.

Lemma or_norm_merge_congr a a' b b' :
  or_norm a = or_norm a' → or_norm b = or_norm b' →
  or_norm (orset_merge a b) = or_norm (orset_merge a' b').
Proof.
  rewrite !or_norm_eq_iff. intros [Ha1 Ha2] [Hb1 Hb2]. unfold orset_merge; simpl. split.
  - intros e. by rewrite !tags_at_filter, !tags_at_union, Ha1, Hb1.
  - by apply nz_merge_congr.
Qed.

Lemma obs_crdt_kind c : kind (obs_crdt c) = kind c.
Proof. by destruct c. Qed.

Lemma merge_with_ts_obs_congr ca ca' cb cb' ta tb :
  obs_crdt ca = obs_crdt ca' → obs_crdt cb = obs_crdt cb' →
  obs_crdt (merge_with_ts ca cb ta tb) = obs_crdt (merge_with_ts ca' cb' ta tb).
Proof.
  intros Ha Hb.
  destruct ca, ca'; try discriminate Ha; destruct cb, cb'; try discriminate Hb;
    unfold merge_with_ts; cbn [try_merge];
    try (destruct (stamp_ltb ta tb); assumption); simpl in *.
  - congruence. (* LWW *)
  - injection Ha as Ha. injection Hb as Hb. f_equal. by apply nz_merge_congr. (* GCounter *)
  - injection Ha as Ha1 Ha2. injection Hb as Hb1 Hb2. f_equal. f_equal; by apply nz_merge_congr. (* PNCounter *)
  - congruence. (* GSet *)
  - f_equal. apply or_norm_merge_congr; congruence. (* ORSet *)
  - congruence. (* Hash *)
Qed.

Lemma rv_merge_obs_congr a a' b b' :
  obs a = obs a' → obs b = obs b' → obs (rv_merge a b) = obs (rv_merge a' b').
Proof.
  unfold obs, rv_merge; simpl. intros [= Hc Hv -> -> ->] [= Hc' Hv' -> -> ->]. f_equal.
  - by apply merge_with_ts_obs_congr.
  - by apply opt_nz_merge_congr.
Qed.

Lemma kind_merge a b :
  kind (rv_crdt a) = kind (rv_crdt b) → kind (rv_crdt (rv_merge a b)) = kind (rv_crdt a).
Proof.
  intros H. unfold rv_merge, merge_with_ts; simpl.
  by destruct (rv_crdt a), (rv_crdt b); try discriminate H.
Qed.

Lemma lww_compat_sym a b : lww_compat a b → lww_compat b a.
Proof. unfold lww_compat. intros H E. symmetry. by apply H. Qed.

Lemma compatible_sym a b : Compatible a b → Compatible b a.
Proof.
  unfold Compatible. destruct (rv_crdt a), (rv_crdt b); try (intros [H|H]; [left|right]; done).
  - apply lww_compat_sym.
  - intros H f r1 r2 H1 H2. apply lww_compat_sym. eauto.
Qed.

Lemma compat_merge_l a b c :
  kind (rv_crdt a) = kind (rv_crdt b) → kind (rv_crdt a) = kind (rv_crdt c) →
  Compatible a c → Compatible b c → Compatible (rv_merge a b) c.
Proof.
  destruct a as [ca ? ? ta ?], b as [cb ? ? tb ?], c as [cc ? ? tc ?]; simpl. intros Hab Hac.
  destruct ca, cb; try discriminate Hab; destruct cc; try discriminate Hac;
    unfold Compatible; simpl; intros Ha Hb; auto.
  - destruct (lww_merge_cases r r0) as [-> | ->]; done.
  - intros f r1 r2 H1 H2. apply hash_merge_pick in H1 as [H1|H1]; eauto.
Qed.

Definition coh_with (c v : rvalue) : Prop := kd v = kd c ∧ Compatible v c.

Lemma coh_with_sym c v : coh_with c v → coh_with v c.
Proof. intros [Hk Hv]. split; [done|by apply compatible_sym]. Qed.

Lemma coh_with_merge c a b : coh_with c a → coh_with c b → coh_with c (rv_merge a b).
Proof.
  intros [Ka Ha] [Kb Hb]. split; [rewrite kind_merge; congruence|].
  apply compat_merge_l; congruence.
Qed.

Definition eqv (a b : rvalue) : Prop := obs a = obs b.
Local Infix "≈" := eqv (at level 70).
Global Instance eqv_equiv : Equivalence eqv.
Proof. unfold eqv. split; [by intros ?|by intros ? ?|intros ? ? ?; congruence]. Qed.
Global Instance rv_merge_proper : Proper (eqv ==> eqv ==> eqv) rv_merge.
Proof. intros a a' Ha b b' Hb. by apply rv_merge_obs_congr. Qed.

Definition mfold1 (x : rvalue) (xs : list rvalue) : rvalue := fold_left rv_merge xs x.
Definition Coh (l : list rvalue) : Prop :=
  ∀ a b, In a l → In b l → kd a = kd b ∧ Compatible a b.

Lemma mfold1_snoc x xs y : mfold1 x (xs ++ [y]) = rv_merge (mfold1 x xs) y.
Proof. unfold mfold1. by rewrite fold_left_app. Qed.

Lemma kind_fold x xs : (∀ y, In y xs → kd y = kd x) → kd (mfold1 x xs) = kd x.
Proof.
  intros Hk. apply (fold_closed rv_merge (λ v, kd v = kd x)); [|done|by apply List.Forall_forall].
  intros a b Ha Hb. rewrite kind_merge; congruence.
Qed.

Lemma compat_fold x xs c :
  (∀ y, In y xs → kd y = kd x) → kd x = kd c →
  Compatible x c → (∀ y, In y xs → Compatible y c) → Compatible (mfold1 x xs) c.
Proof.
  intros Hk Hkc Hx Hxs. apply (fold_closed rv_merge (coh_with c)).
  - apply coh_with_merge.
  - done.
  - apply List.Forall_forall. intros y Hy. split; [rewrite Hk by done; done|auto].
Qed.

Lemma Coh_sub l l' : (∀ z, In z l' → In z l) → Coh l → Coh l'.
Proof. intros Hs Hc a b Ha Hb. apply Hc; auto. Qed.

(* What can be made from the elements of l by merging.  Coherence of l extends to it, and on
   it rv_merge is a semilattice operation up to ≈, so that the theorems of SemilatticeFold
   apply to folds of lists drawn from l. *)
Inductive merges (l : list rvalue) : rvalue → Prop :=
| merges_in v : In v l → merges l v
| merges_merge a b : merges l a → merges l b → merges l (rv_merge a b).

Lemma merges_all l l' : (∀ z, In z l' → In z l) → Forall (merges l) l'.
Proof. intros Hs. apply List.Forall_forall. intros z Hz. by apply merges_in, Hs. Qed.

Lemma merges_fold l x xs : (∀ z, In z (x :: xs) → In z l) → merges l (mfold1 x xs).
Proof.
  intros Hs. apply (fold_closed1 rv_merge (merges l) (merges_merge l)), merges_all, Hs.
Qed.

Lemma merges_coh_with l c v : (∀ e, In e l → coh_with c e) → merges l v → coh_with c v.
Proof. intros Hl. induction 1; auto using coh_with_merge. Qed.

Lemma merges_coh l c v : Coh l → merges l c → merges l v → coh_with c v.
Proof.
  intros Hl Hc Hv. apply (merges_coh_with l); [|done].
  intros e He. apply coh_with_sym, (merges_coh_with l); [|done].
  intros e' He'. by apply Hl.
Qed.

Lemma merges_semilattice l : Coh l → semilattice eqv rv_merge (merges l).
Proof.
  intros Hc. split.
  - apply merges_merge.
  - intros a _. apply rv_merge_idem.
  - intros a b Ha Hb. rewrite rv_merge_comm; [done|]. by apply (merges_coh l).
  - intros a b c Ha Hb Hcc. rewrite rv_merge_assoc; [done|]. split; by apply (merges_coh l).
Qed.

Lemma fold_absorbs x xs y :
  Coh (x :: xs) → In y (x :: xs) → rv_merge (mfold1 x xs) y ≈ mfold1 x xs.
Proof. intros Hc. apply (fold_upper _ _ _ (merges_semilattice _ Hc)). by apply merges_all. Qed.

Lemma fold_absorbs_fold x xs y ys :
  Coh ((x :: xs) ++ (y :: ys)) → (∀ z, In z (y :: ys) → In z (x :: xs)) →
  rv_merge (mfold1 x xs) (mfold1 y ys) ≈ mfold1 x xs.
Proof.
  intros Hc Hsub.
  apply (fold_mono _ _ _ (merges_semilattice _ Hc)); auto using merges_all, in_or_app.
Qed.

Lemma compat_folds x xs y ys :
  Coh ((x :: xs) ++ (y :: ys)) → Compatible (mfold1 x xs) (mfold1 y ys).
Proof.
  intros Hc. apply (merges_coh _ _ _ Hc); apply merges_fold; auto using in_or_app.
Qed.

Theorem fold_set_determined x xs y ys :
  Coh ((x :: xs) ++ (y :: ys)) → (∀ z, In z (x :: xs) ↔ In z (y :: ys)) →
  mfold1 x xs ≈ mfold1 y ys.
Proof.
  intros Hc.
  apply (fold_set_equiv _ _ _ (merges_semilattice _ Hc)); auto using merges_all, in_or_app.
Qed.
