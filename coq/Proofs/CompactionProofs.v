(* Lemmas for C13: what a compaction writes, folded into a node state, equals what it
   read; the layouts that witness the as-found defect and the two design-level findings
   (evaluated in Props/C13.v). *)
From stdpp Require Import gmap.
From Coq Require Import NArith Lia.
From RV Require Import Model.Crdt Model.Store Model.Persist Model.CompactSpec.
From RV Require Import Proofs.CrdtProofs Proofs.MergeFoldProofs Proofs.PersistProofs Proofs.RecoveryProofs.
Local Open Scope N_scope.

Definition keyed (m : gmap (list N) delta) : Prop := ∀ k e, m !! k = Some e → d_key e = k.

Lemma absorb_lookup_val v m d k : v_merge v = true →
  d_val <$> (absorb v m d !! k) =
  if decide (k = d_key d) then mfoldo (d_val <$> (m !! k)) [d_val d] else d_val <$> (m !! k).
Proof.
  intros Hv. rewrite absorb_insert. destruct (decide (k = d_key d)) as [->|Hne].
  - rewrite lookup_insert. destruct (m !! d_key d); simpl; [|done]. unfold absorb_val. by rewrite Hv.
  - by rewrite lookup_insert_ne.
Qed.

Lemma absorb_fold_vals v A m k : v_merge v = true →
  d_val <$> (fold_left (absorb v) A m !! k) = mfoldo (d_val <$> (m !! k)) (valsk k (map upd_of A)).
Proof.
  intros Hv. revert m. induction A as [|d A IH]; intros m; simpl.
  - by destruct (m !! k).
  - rewrite IH, valsk_cons, absorb_lookup_val by done. simpl.
    destruct (decide (d_key d = k)) as [<-|Hne].
    + rewrite decide_True by done. by rewrite <- mfoldo_cons.
    + by rewrite decide_False by done.
Qed.

Lemma absorb_fold_val v A m k : v_merge v = true → keyed m →
  d_val <$> (fold_left (absorb v) A m !! k) = mfoldo (d_val <$> (m !! k)) (valsk k (map upd_of A)).
Proof. intros Hv _. by apply absorb_fold_vals. Qed.

Lemma absorb_fold_val0 v A k : v_merge v = true →
  d_val <$> (fold_left (absorb v) A ∅ !! k) = mfoldo None (valsk k (map upd_of A)).
Proof. intros Hv. by rewrite absorb_fold_vals, lookup_empty. Qed.

Lemma fold_keyed v A m : keyed m → keyed (fold_left (absorb v) A m).
Proof. revert m. induction A as [|d A IH]; intros m Hk; simpl; [done|]. apply IH. exact (absorb_keeps_keys v m d Hk). Qed.

Lemma keyed_empty : keyed ∅.
Proof. intros ? ?. by rewrite lookup_empty. Qed.

Definition keep_val (cutoff : N) (x : rvalue) : bool :=
  negb (is_tomb x && (st_time (rv_ts x) <? cutoff)).

Lemma keep_delta_val cutoff d : keep_delta cutoff d = keep_val cutoff (d_val d).
Proof. reflexivity. Qed.

Lemma keep_val_0 x : keep_val 0 x = true.
Proof. apply (keep_delta_0 (Delta [] x 0)). Qed.

Lemma in_valsk_compacted (v : variant) (cutoff : N) (A : list delta) (k : list N) (x : rvalue) : v_merge v = true →
  In x (valsk k (map upd_of (compacted v cutoff A))) ↔
  mfoldo None (valsk k (map upd_of A)) = Some x ∧ keep_val cutoff x = true.
Proof.
  intros Hv. rewrite in_valsk, in_map_iff. unfold compacted.
  assert (Hkd : keyed (fold_left (absorb v) A ∅)) by (apply fold_keyed, keyed_empty).
  pose proof (absorb_fold_val0 v A k Hv) as Hf.
  split.
  - intros (e & He & Hin). apply in_compact_out in Hin as [[k' Hk'] Hkeep].
    injection He as He1 He2. pose proof (Hkd _ _ Hk') as Hkk. subst.
    rewrite Hk' in Hf. by rewrite <- Hf.
  - intros [Hm Hkeep]. rewrite Hm in Hf.
    destruct (fold_left (absorb v) A ∅ !! k) as [e|] eqn:He; [|discriminate].
    injection Hf as <-. exists e. split.
    + unfold upd_of. by rewrite (Hkd _ _ He).
    + apply in_compact_out. eauto.
Qed.

Lemma merge_fold_assoc x a l :
  kd a = kd x → (∀ y, In y l → kd y = kd x) →
  rv_merge x (mfold1 a l) = mfold1 (rv_merge x a) l.
Proof.
  intros Ha. induction l as [|z l IH] using rev_ind; intros Hl; [done|].
  assert (Hl' : ∀ y, In y l → kd y = kd x) by (intros y Hy; apply Hl, in_or_app; auto).
  assert (Hz : kd z = kd x) by (apply Hl, in_or_app; right; by left).
  rewrite !mfold1_snoc, <- IH by done.
  apply rv_merge_assoc.
  split; (rewrite kind_fold; [congruence|]); intros y Hy; rewrite (Hl' y Hy); congruence.
Qed.

Lemma mfoldo_unflatten o a l vb :
  (∀ y, In y (a :: l) → match o with Some x => kd y = kd x | None => True end) →
  mfoldo o (mfold1 a l :: vb) = mfoldo o ((a :: l) ++ vb).
Proof.
  intros Hk. destruct o as [x|]; simpl.
  - f_equal. unfold mfold1 at 1 3. simpl. rewrite fold_left_app. f_equal.
    change (rv_merge x (mfold1 a l) = mfold1 (rv_merge x a) l). apply merge_fold_assoc.
    + apply Hk. by left.
    + intros y Hy. apply Hk. by right.
  - f_equal. unfold mfold1. by rewrite fold_left_app.
Qed.

Lemma coh_fold a l rest : Coh ((a :: l) ++ rest) → Coh (mfold1 a l :: rest).
Proof.
  intros Hc.
  assert (Hm : ∀ z, In z (mfold1 a l :: rest) → merges ((a :: l) ++ rest) z).
  { intros z [<-|Hz]; [apply merges_fold|apply merges_in]; auto using in_or_app. }
  intros u w Hu Hw. apply (merges_coh _ w u Hc); auto.
Qed.

Section content_preserved.
  Variable v : variant.
  Hypothesis Hv : v_merge v = true.
  Variables (s : gmap (list N) rvalue) (A : list delta) (B : list (list N * rvalue)) (cutoff : N).
  Variables (us us' : list (list N * rvalue)).
  Hypothesis Hus : ∀ p, In p us ↔ In p (map upd_of A ++ B).
  Hypothesis Hus' : ∀ p, In p us' ↔ In p (map upd_of (compacted v cutoff A) ++ B).
  Hypothesis Hco : coherent (map_to_list s ++ map upd_of A ++ B).

  Lemma coh_ab k : Coh (option_list (s !! k) ++ valsk k (map upd_of A) ++ valsk k B).
  Proof. rewrite <- valsk_app. by apply coh_key. Qed.

  Lemma before_key k :
    option_map obs (replay us s !! k) =
    option_map obs (mfoldo (s !! k) (valsk k (map upd_of A) ++ valsk k B)).
  Proof.
    rewrite replay_lookup. eapply mfoldo_set_determined; [|apply (coh_ab k)|done].
    intros x. by rewrite in_valsk, Hus, !in_app_iff, <- !in_valsk.
  Qed.

  Lemma after_key k x :
    In x (valsk k us') ↔
    (mfoldo None (valsk k (map upd_of A)) = Some x ∧ keep_val cutoff x = true) ∨ In x (valsk k B).
  Proof. rewrite in_valsk, Hus', in_app_iff, <- !in_valsk. by rewrite in_valsk_compacted. Qed.

  Lemma key_kept k :
    (∀ x, mfoldo None (valsk k (map upd_of A)) = Some x → keep_val cutoff x = true) →
    option_map obs (replay us' s !! k) = option_map obs (replay us s !! k).
  Proof.
    intros Hkept. rewrite before_key, replay_lookup.
    pose proof (coh_ab k) as Hc. pose proof (after_key k) as Hset'.
    destruct (valsk k (map upd_of A)) as [|a l].
    - (* no input delta of this key *)
      eapply mfoldo_set_determined; [|exact Hc|done].
      intros x. rewrite Hset'. simpl. split; [intros [[? _]|?]; [discriminate|done]|auto].
    - (* the fold of the inputs is in the new segment *)
      simpl in Hset'. specialize (Hkept _ eq_refl).
      rewrite <- (mfoldo_unflatten (s !! k) a l (valsk k B)).
      2: { intros y Hy. destruct (s !! k) as [x|]; [|done].
           apply Hc; simpl in *; rewrite ?in_app_iff; simpl; tauto. }
      eapply mfoldo_set_determined; [|apply (coh_fold a l (option_list (s !! k) ++ valsk k B))|].
      + intros x. rewrite Hset'. simpl. split; [intros [[[= <-] _]|?]; auto|intros [<-|?]; auto].
      + eapply Coh_sub; [|exact Hc]. intros x. rewrite !in_app_iff. simpl. tauto.
      + intros x. rewrite !in_app_iff. simpl. rewrite in_app_iff. tauto.
  Qed.
End content_preserved.

Theorem compact_content_preserves v s A B us us' :
  v_merge v = true →
  (∀ p, In p us ↔ In p (map upd_of A ++ B)) →
  (∀ p, In p us' ↔ In p (map upd_of (compacted v 0 A) ++ B)) →
  coherent (map_to_list s ++ map upd_of A ++ B) →
  obs_kv (replay us' s) = obs_kv (replay us s).
Proof.
  intros Hv Hus Hus' Hco. apply map_eq. intros k. unfold obs_kv. rewrite !lookup_fmap.
  apply (key_kept v Hv s A B 0 us us' Hus Hus' Hco k).
  intros x _. apply keep_val_0.
Qed.

Lemma live_lookup (m : gmap (list N) rvalue) k :
  obs_kv (live_kv m) !! k =
  match m !! k with Some x => if is_tomb x then None else Some (obs x) | None => None end.
Proof.
  unfold obs_kv, live_kv. rewrite lookup_fmap, map_filter_lookup.
  destruct (m !! k) as [x|]; simpl; [|done].
  destruct (decide (is_live (k, x))) as [Hl|Hl].
  - rewrite option_guard_True by done. unfold is_live in Hl. simpl in Hl. by rewrite Hl.
  - rewrite option_guard_False by done. unfold is_live in Hl. simpl in Hl.
    by destruct (is_tomb x).
Qed.

Lemma is_tomb_obs x y : obs x = obs y → is_tomb x = is_tomb y.
Proof.
  destruct x as [cx ? ? ? ?], y as [cy ? ? ? ?]. unfold obs, is_tomb; simpl. intros [= Hc _ _ _ _].
  destruct cx, cy; simpl in Hc; try discriminate; try done. by injection Hc as ->.
Qed.

Lemma live_lookup_congr (m1 m2 : gmap (list N) rvalue) k :
  option_map obs (m1 !! k) = option_map obs (m2 !! k) →
  obs_kv (live_kv m1) !! k = obs_kv (live_kv m2) !! k.
Proof.
  rewrite !live_lookup. destruct (m1 !! k) as [x|], (m2 !! k) as [y|]; simpl; try discriminate; [|done].
  intros H. assert (H' : obs x = obs y) by congruence. rewrite (is_tomb_obs _ _ H'). destruct (is_tomb y); congruence.
Qed.

Theorem tombstone_gc_safe_lemma v s A B cutoff us us' :
  v_merge v = true →
  (∀ p, In p us ↔ In p (map upd_of A ++ B)) →
  (∀ p, In p us' ↔ In p (map upd_of (compacted v cutoff A) ++ B)) →
  coherent (map_to_list s ++ map upd_of A ++ B) →
  (∀ e, In e (dropped v cutoff A) → s !! d_key e = None ∧ ∀ p, In p B → p.1 ≠ d_key e) →
  obs_kv (live_kv (replay us' s)) = obs_kv (live_kv (replay us s)).
Proof.
  intros Hv Hus Hus' Hco Hsafe. apply map_eq. intros k.
  destruct (mfoldo None (valsk k (map upd_of A))) as [x|] eqn:HF.
  2: { apply live_lookup_congr. apply (key_kept v Hv s A B cutoff us us' Hus Hus' Hco k).
       intros x Hx. congruence. }
  destruct (keep_val cutoff x) eqn:Hkeep.
  { apply live_lookup_congr. apply (key_kept v Hv s A B cutoff us us' Hus Hus' Hco k).
    intros x' Hx'. congruence. }
  (* the fold of the inputs of k is a tombstone below the cutoff: dropped *)
  assert (Htomb : is_tomb x = true).
  { unfold keep_val in Hkeep. apply negb_false_iff, andb_true_iff in Hkeep. tauto. }
  pose proof (absorb_fold_val0 v A k Hv) as Hf. rewrite HF in Hf.
  destruct (fold_left (absorb v) A ∅ !! k) as [e|] eqn:He; [|discriminate]. injection Hf as Hx.
  assert (Hke : d_key e = k) by (eapply fold_keyed; [apply keyed_empty|exact He]).
  destruct (Hsafe e) as [Hs HB].
  { unfold dropped. apply in_filter. split.
    - rewrite keep_delta_val, Hx, Hkeep. done.
    - unfold compacted. apply in_compact_out. split; [eauto|apply keep_delta_0]. }
  rewrite Hke in Hs.
  assert (Hvb : valsk k B = []).
  { apply elem_of_nil_inv. intros y Hy%elem_of_list_In%in_valsk. apply (HB _ Hy). simpl. congruence. }
  assert (Hafter : replay us' s !! k = None).
  { rewrite replay_lookup, Hs, (elem_of_nil_inv (valsk k us')); [done|].
    intros y [[Hy1 Hy2]|Hy]%elem_of_list_In%(after_key v Hv A B cutoff us' Hus'); [congruence|by rewrite Hvb in Hy]. }
  (* before: the tombstone *)
  pose proof (before_key s A B us Hus Hco k) as Hbefore. rewrite Hs, Hvb, app_nil_r, HF in Hbefore.
  rewrite !live_lookup, Hafter.
  destruct (replay us s !! k) as [y|]; [|done]. simpl in Hbefore.
  assert (Hy : obs y = obs x) by congruence.
  by rewrite (is_tomb_obs _ _ Hy), Htomb.
Qed.

(* [compact_steps] with the premises of the swap spelled out *)
Section generic.
  Variable v : variant.
  Hypothesis Hstrict : v_strict_get v = true.
  Variables (c : ccfg) (now : N).
  Variables P0 P : gmap name (sobj obj) → Prop.
  Hypothesis P0_P : ∀ st, P0 st → P st.
  Hypothesis P_ok : ∀ st, P st → store_ok st.
  Hypothesis P_frame : ∀ st st', P st → st' !! NMan = st !! NMan →
    (∀ rid m, cur_manifest st rid = Some m →
       ∀ k, (k = NTmp ∨ k = NMan ∨ ∃ i, k = NSeg i ∧ m_next m <= i) ∨ st' !! k = st !! k) →
    P st'.
  Hypothesis P_install : ∀ st st' m m' sel xs out,
    P0 st → cur_manifest st 0 = Some m →
    (∀ s, In s sel → In s (m_segs m)) →
    out = compact_out (now - cc_ttl c) (fold_left (absorb v) (flat_map (seg_deltas st) sel) ∅) →
    st' !! NMan = Some (Whole (OMan m')) →
    m_ck m' = m_ck m → m_next m <= m_next m' →
    (∀ s, In s (m_segs m') ↔ In s xs ∨ (In s (m_segs m) ∧ ¬ In (si_id s) (map si_id sel))) →
    (∀ s, In s (m_segs m) → ¬ In (si_id s) (map si_id sel) → st' !! si_key s = st !! si_key s) →
    (∀ ci, m_ck m = Some ci → st' !! ci_key ci = st !! ci_key ci) →
    (∀ x, In x xs → si_key x = NSeg (si_id x) ∧ si_id x < m_next m' ∧ m_next m <= si_id x ∧
                    st' !! si_key x = Some (Whole (OSeg out))) →
    (xs = [] ∧ out = []) ∨ (∃ x, xs = [x] ∧ out ≠ []) →
    P st'.

  Lemma compact_generic sz (w : world obj) w' r :
    compact v c now sz w = (w', r) → P0 (w_store w) → P (w_store w').
  Proof.
    apply (compact_steps v Hstrict c now P0 P); [done|done| |].
    - intros st st' HP [HM Hf]. apply (P_frame st); [done..|].
      intros rid m Hc k. destruct (Hf rid m Hc k) as [[?|?]|?]; auto.
    - intros st st' m m' sel xs out H0 Hm Hsel Hout []. by eapply P_install.
  Qed.
End generic.

Lemma load_segs_agree (st st' : gmap name (sobj obj)) l :
  (∀ s, In s l → st' !! si_key s = st !! si_key s) → load_segs st' l = load_segs st l.
Proof.
  induction l as [|s l IH]; intros H; simpl; [done|].
  unfold load_seg. rewrite (H s (or_introl eq_refl)), IH; [done|]. intros; apply H; by right.
Qed.

Lemma recover_frame (st st' : gmap name (sobj obj)) rid :
  store_ok st → framed st st' → recover st' rid = recover st rid.
Proof.
  intros Hok [Hm Hf]. destruct (Hok rid) as (m & Hc & Hg).
  destruct (agree_on_frame st st' m Hg (Hf rid m Hc)) as [Ha Hb].
  assert (Hc' : cur_manifest st' rid = Some m) by (unfold cur_manifest in *; by rewrite Hm).
  unfold recover. rewrite Hc, Hc'.
  rewrite (load_segs_agree st st' (visible m)).
  2: { intros s Hs%in_visible. apply Ha. tauto. }
  destruct (m_ck m) as [ci|] eqn:Hci; [|done]. by rewrite (Hb ci).
Qed.

Lemma store_ok_frame (st st' : gmap name (sobj obj)) : store_ok st → framed st st' → store_ok st'.
Proof.
  intros Hok Hf. apply (inv_store_ok eq _ []). eapply inv_frame; [exact Hf|]. by apply store_ok_inv.
Qed.

Lemma listed_split st m sel d :
  man_good st m → (∀ s, In s sel → In s (m_segs m)) →
  In d (flat_map (seg_deltas st) (m_segs m)) ↔
  In d (flat_map (seg_deltas st) sel ++ flat_map (seg_deltas st) (without (map si_id sel) (m_segs m))).
Proof.
  intros Hg Hsel. rewrite in_app_iff, !in_flat_map. split.
  - intros (s & Hs & Hd). destruct (in_dec N.eq_dec (si_id s) (map si_id sel)) as [Hi|Hi].
    + left. apply in_map_iff in Hi as (s' & Hid & Hs'). exists s'. split; [done|].
      by rewrite (seg_deltas_id st m s s' Hg Hs (Hsel s' Hs') Hid).
    + right. exists s. split; [|done]. by apply in_without.
  - intros [(s & Hs & Hd)|(s & Hs & Hd)]; exists s; (split; [|done]); [auto|].
    apply in_without in Hs. tauto.
Qed.

Lemma listed_swapped st st' m m' sel xs out d :
  swapped st st' m m' sel xs out →
  In d (flat_map (seg_deltas st') (m_segs m')) ↔
  In d (out ++ flat_map (seg_deltas st) (without (map si_id sel) (m_segs m))).
Proof.
  intros [_ _ _ Hin Hkeep _ Hnew Hsh]. rewrite in_app_iff, !in_flat_map.
  assert (Hnewd : ∀ x, In x xs → seg_deltas st' x = out).
  { intros x Hx. destruct (Hnew x Hx) as (_ & _ & _ & H4). unfold seg_deltas. by rewrite H4. }
  split.
  - intros (s & Hs & Hd). apply Hin in Hs as [Hx|[Hs Hni]].
    + left. by rewrite <- (Hnewd s Hx).
    + right. exists s. split; [by apply in_without|]. unfold seg_deltas in *. by rewrite <- Hkeep.
  - intros [Hd|(s & Hs & Hd)].
    + destruct Hsh as [[_ ->]|(x & -> & _)]; [destruct Hd|].
      exists x. split; [apply Hin; left; by left|]. rewrite Hnewd; [done|by left].
    + apply in_without in Hs as [Hs Hni]. exists s. split; [apply Hin; auto|].
      unfold seg_deltas in *. by rewrite Hkeep.
Qed.

Section sem.
  Variable v : variant.
  Hypothesis Hstrict : v_strict_get v = true.
  Hypothesis Hmerge : v_merge v = true.
  Variables (c : ccfg) (now rid : N) (T : gmap (list N) rvalue).
  Hypothesis Hnow : now <= cc_ttl c.

  Definition Sem0 (st : gmap name (sobj obj)) : Prop :=
    store_ok st ∧ ∃ rec, recover st rid = Some rec ∧ ck_covers (r_man rec) ∧
      coherent (map_to_list (ck_state rec) ++ listed_updates st (r_man rec)) ∧
      obs_kv (state_of rec) = T.
  Definition Sem (st : gmap name (sobj obj)) : Prop :=
    store_ok st ∧ ∃ rec, recover st rid = Some rec ∧ obs_kv (state_of rec) = T.

  Lemma sem_frame st st' : Sem st → st' !! NMan = st !! NMan →
    (∀ rid m, cur_manifest st rid = Some m →
       ∀ k, (k = NTmp ∨ k = NMan ∨ ∃ i, k = NSeg i ∧ m_next m <= i) ∨ st' !! k = st !! k) →
    Sem st'.
  Proof.
    intros (Hok & rec & Hr & HT) Hm Hf.
    assert (Hfr : framed st st').
    { split; [done|]. intros rid' m Hc k. destruct (Hf rid' m Hc k) as [[?|[->|?]]|?]; auto. }
    split; [by eapply store_ok_frame|].
    exists rec. split; [|done]. by rewrite (recover_frame st st' rid Hok Hfr).
  Qed.

  Lemma sem_install st st' m m' sel xs out :
    Sem0 st → cur_manifest st 0 = Some m →
    (∀ s, In s sel → In s (m_segs m)) →
    out = compact_out (now - cc_ttl c) (fold_left (absorb v) (flat_map (seg_deltas st) sel) ∅) →
    st' !! NMan = Some (Whole (OMan m')) →
    m_ck m' = m_ck m → m_next m <= m_next m' →
    (∀ s, In s (m_segs m') ↔ In s xs ∨ (In s (m_segs m) ∧ ¬ In (si_id s) (map si_id sel))) →
    (∀ s, In s (m_segs m) → ¬ In (si_id s) (map si_id sel) → st' !! si_key s = st !! si_key s) →
    (∀ ci, m_ck m = Some ci → st' !! ci_key ci = st !! ci_key ci) →
    (∀ x, In x xs → si_key x = NSeg (si_id x) ∧ si_id x < m_next m' ∧ m_next m <= si_id x ∧
                    st' !! si_key x = Some (Whole (OSeg out))) →
    (xs = [] ∧ out = []) ∨ (∃ x, xs = [x] ∧ out ≠ []) →
    Sem st'.
  Proof.
    intros (Hok & rec & Hr & Hcov & Hco & HT) Hm0 Hsel Hout HM Hck Hnx Hin Hkeep Hckk Hnew Hxs.
    replace (now - cc_ttl c) with 0 in Hout by lia.
    set (A := flat_map (seg_deltas st) sel) in *.
    set (B := map upd_of (flat_map (seg_deltas st) (without (map si_id sel) (m_segs m)))).
    destruct (recover_parts _ _ _ Hr) as (Hmr & _ & Hck0).
    destruct (cur_manifest_rid _ _ _ _ _ Hmr Hm0) as (Esegs & Eck & _).
    assert (Hg : man_good st m) by (destruct (Hok 0) as (m1 & Hc1 & Hg1); congruence).
    assert (Hsw : swapped st st' m m' sel xs out) by by split.
    assert (Hok' : store_ok st').
    { intros rid'. exists m'. split; [|by eapply man_good_swapped]. unfold cur_manifest. by rewrite HM. }
    split; [done|].
    destruct (inv_recover eq st' [] rid (store_ok_inv eq _ Hok')) as (rec' & Hr' & _).
    destruct (recover_parts _ _ _ Hr') as (Hmr' & _ & Hck').
    assert (Em' : r_man rec' = m') by (unfold cur_manifest in Hmr'; rewrite HM in Hmr'; by injection Hmr').
    exists rec'. split; [done|]. rewrite <- HT, !state_of_replay.
    (* the checkpoint is the same object *)
    assert (Ecs : ck_state rec' = ck_state rec).
    { unfold ck_state. rewrite Hck0, Hck', Em', Hck, <- Eck.
      destruct (m_ck (r_man rec)) as [ci|] eqn:Hci; [|done]. rewrite (Hckk ci); [done|congruence]. }
    assert (Hcov' : ck_covers (r_man rec')).
    { rewrite Em'. unfold ck_covers in *. rewrite Hck. rewrite Eck in Hcov.
      destruct (m_ck m) as [ci|] eqn:Hci; [|done]. intros s Hs. apply Hin in Hs as [Hx|[Hs _]].
      - destruct (Hnew s Hx) as (_ & _ & H3 & _). destruct (man_good_ck _ _ _ Hg Hci) as [? _]. lia.
      - apply Hcov. by rewrite Esegs. }
    assert (Hbefore : ∀ p, In p (listed_updates st (r_man rec)) ↔ In p (map upd_of A ++ B)).
    { unfold listed_updates, B. rewrite Esegs, <- map_app. apply in_map_congr. intros d. by apply listed_split. }
    rewrite Ecs. apply (compact_content_preserves v (ck_state rec) A B); [done|..].
    - intros p. by rewrite (recovered_updates _ _ _ Hr Hcov p).
    - intros p. rewrite (recovered_updates _ _ _ Hr' Hcov' p), Em'. unfold listed_updates, B.
      rewrite <- map_app. apply in_map_congr. intros d. rewrite (listed_swapped _ _ _ _ _ _ _ d Hsw). by rewrite Hout.
    - eapply coherent_sub; [|exact Hco]. intros p. rewrite !in_app_iff, Hbefore, in_app_iff. tauto.
  Qed.

  Lemma compact_preserves_lemma sz (w : world obj) w' r :
    compact v c now sz w = (w', r) → Sem0 (w_store w) → Sem (w_store w').
  Proof.
    apply (compact_generic v Hstrict c now Sem0 Sem).
    - intros st (Hok & rec & Hr & _ & _ & HT). split; eauto.
    - by intros st [H _].
    - apply sem_frame.
    - apply sem_install.
  Qed.
End sem.

Definition hashv (f val t r : N) : rvalue :=
  RV (CHash {[ [f] := Lww (Some [val]) (Stamp t r) false ]}) None None (Stamp t r) None.
Definition tombv (t r : N) : rvalue :=
  RV (CLww (Lww None (Stamp t r) true)) None None (Stamp t r) None.
(* more than any example compaction consumes (at most 9 calls) *)
Definition oks : list outcome := repeat OOk 60.
Definition nfields (s : gmap (list N) rvalue) (k : list N) : nat :=
  match s !! k with
  | Some v => match rv_crdt v with CHash h => size h | _ => 0%nat end
  | None => 0%nat
  end.
Definition state_at (st : gmap name (sobj obj)) : gmap (list N) rvalue :=
  match recover st 1 with Some r => state_of r | None => ∅ end.

Definition kl_store : gmap name (sobj obj) :=
  <[NMan := Whole (OMan (Manifest 2 1 [SegInfo 0 (NSeg 0) 1 100 5 5; SegInfo 1 (NSeg 1) 1 100 6 6] None 2))]>
   (<[NSeg 0 := Whole (OSeg [Delta [9] (hashv 1 10 5 1) 1])]>
   (<[NSeg 1 := Whole (OSeg [Delta [9] (hashv 2 20 6 2) 2])]> ∅)).
Definition kl_man : manifest :=
  Manifest 2 1 [SegInfo 0 (NSeg 0) 1 100 5 5; SegInfo 1 (NSeg 1) 1 100 6 6] None 2.
Definition kl_cc : ccfg := CCfg 1000 2 5 1000.
Definition keep_latest : variant := Variant true true false true.

Lemma kl_coherent : coherent [([9], hashv 1 10 5 1); ([9], hashv 2 20 6 2)].
Proof.
  (* both values are hashes with one field: a field common to a pair is the same field of the
     same value, or does not exist (fields [1] and [2]) *)
  intros a b Ha Hb _. simpl in Ha, Hb.
  destruct Ha as [<-|[<-|[]]], Hb as [<-|[<-|[]]]; (split; [done|]); unfold Compatible; simpl.
  all: intros f r1 r2 [<- <-]%lookup_singleton_Some [E <-]%lookup_singleton_Some.
  all: try discriminate E; by intros _.
Qed.

(* Segment 0 is above the size target (skipped) and holds k1 = 7 @5; segment 1 holds the
   tombstone of k1 @9, segment 2 another key. *)
Definition tc_store : gmap name (sobj obj) :=
  <[NMan := Whole (OMan (Manifest 3 1 [SegInfo 0 (NSeg 0) 1 200 5 5; SegInfo 1 (NSeg 1) 1 100 9 9;
                                       SegInfo 2 (NSeg 2) 1 100 3 3] None 3))]>
   (<[NSeg 0 := Whole (OSeg [dlt 1 7 5 1])]>
   (<[NSeg 1 := Whole (OSeg [Delta [1] (tombv 9 1) 1])]>
   (<[NSeg 2 := Whole (OSeg [dlt 2 8 3 1])]> ∅))).
Definition tc_cc : ccfg := CCfg 150 2 5 86400000.
Definition tc_now : N := 1758000000000.
Definition get_at (s : gmap (list N) rvalue) (k : list N) : option (list N) :=
  match s !! k with Some v => rv_get v | None => None end.

Definition il_store : gmap name (sobj obj) :=
  <[NMan := Whole (OMan (Manifest 2 1 [SegInfo 0 (NSeg 0) 1 100 5 5; SegInfo 1 (NSeg 1) 1 100 6 6] None 2))]>
   (<[NSeg 0 := Whole (OSeg [dlt 1 7 5 1])]>
   (<[NSeg 1 := Whole (OSeg [dlt 2 8 6 1])]> ∅)).
Definition il_run := interleaved repaired (ex_pcfg repaired) 0 100 100 il_store [dlt 3 9 7 1] oks oks.

Lemma kl_store_ok : store_ok kl_store.
Proof.
  intros rid. eexists. split; [vm_compute; reflexivity|]. split; [|done].
  repeat constructor; simpl; try lia; eexists; vm_compute; reflexivity.
Qed.

Lemma kl_recover :
  recover kl_store 1 =
  Some (Recovered kl_man None
                  [Delta [9] (hashv 1 10 5 1) 1; Delta [9] (hashv 2 20 6 2) 2]).
Proof. vm_compute. reflexivity. Qed.

Lemma kl_sem0 : ∃ T, Sem0 1 T kl_store ∧ nfields T [9] = 2%nat.
Proof.
  eexists. split; [split; [apply kl_store_ok|]|].
  - eexists. split; [apply kl_recover|]. split; [done|]. split; [|reflexivity].
    assert (E : listed_updates kl_store kl_man = [([9], hashv 1 10 5 1); ([9], hashv 2 20 6 2)])
      by (vm_compute; reflexivity).
    simpl r_man. rewrite E. apply kl_coherent.
  - vm_compute. reflexivity.
Qed.

Definition gb_store : gmap name (sobj obj) :=
  <[NMan := Whole (OMan (Manifest 3 1 [SegInfo 0 (NSeg 0) 1 100 5 5; SegInfo 1 (NSeg 1) 1 100 6 6;
                                       SegInfo 2 (NSeg 2) 1 100 7 7] None 3))]>
   (<[NSeg 0 := Whole (OSeg [dlt 1 7 5 1])]>
   (<[NSeg 1 := Whole (OSeg [dlt 2 8 6 1])]>
   (<[NSeg 2 := Whole (OSeg [dlt 3 9 7 1])]> ∅))).
Definition gb_io : list outcome := [OOk; OErr EGarble] ++ oks.
