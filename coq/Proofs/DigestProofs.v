(* Lemmas about Model/Digest.v: the bucket order is a total order, so the digest is a
   function of the SET of entries; what the digest can and cannot distinguish; one sync
   round merges the divergent buckets; starvation under a short limit; under a hash that
   is injective on the inputs, equal roots mean the same keys with the same hashed bytes;
   concrete instances of the hypotheses. *)
From stdpp Require Import gmap sorting.
From Coq Require Import NArith Lia.
From RV Require Import Lib.SipHash Lib.SipHashFast Model.Crdt Model.Digest Proofs.CrdtProofs.
Local Open Scope N_scope.

Lemma kd_le_spec a b :
  kd_le a b ↔
  kd_key a < kd_key b ∨
  (kd_key a = kd_key b ∧ (kd_val a < kd_val b ∨ (kd_val a = kd_val b ∧ kd_ts a ≤ kd_ts b))).
Proof.
  unfold kd_le, kd_leb. rewrite Is_true_true, orb_true_iff, andb_true_iff, orb_true_iff,
    andb_true_iff, !N.ltb_lt, !N.eqb_eq, N.leb_le. tauto.
Qed.

Global Instance kd_le_total : Total kd_le.
Proof. intros a b. rewrite !kd_le_spec. lia. Qed.
Global Instance kd_le_trans : Transitive kd_le.
Proof. intros a b c. rewrite !kd_le_spec. lia. Qed.
Global Instance kd_le_antisym : AntiSymm (=) kd_le.
Proof.
  intros [k1 v1 t1] [k2 v2 t2]. rewrite !kd_le_spec. simpl. intros H1 H2. f_equal; lia.
Qed.

Lemma bucket_order_Permutation l : bucket_order l ≡ₚ l.
Proof. apply merge_sort_Permutation. Qed.

Lemma bucket_order_perm_eq l1 l2 : l1 ≡ₚ l2 → bucket_order l1 = bucket_order l2.
Proof.
  intros Hp. apply (Sorted_unique kd_le).
  - apply Sorted_merge_sort; apply _.
  - apply Sorted_merge_sort; apply _.
  - unfold bucket_order. by rewrite !merge_sort_Permutation.
Qed.

Lemma low_bits_mod depth x : low_bits depth x = x mod 2 ^ depth.
Proof. apply N.land_ones. Qed.

Lemma differs_refl d : differs d d = false.
Proof. unfold differs. by rewrite N.eqb_refl. Qed.

Section perm.
  Variable h : list N → N.

  Lemma from_digests_perm l1 l2 : l1 ≡ₚ l2 → from_digests h l1 = from_digests h l2.
  Proof.
    intros Hp. destruct l1 as [|a l1], l2 as [|b l2].
    - reflexivity.
    - apply Permutation_nil_l in Hp. discriminate.
    - apply Permutation_nil_r in Hp. discriminate.
    - unfold from_digests. rewrite (bucket_order_perm_eq _ _ Hp), (Permutation_length Hp). reflexivity.
  Qed.

  Lemma bucket_nodes_perm depth l1 l2 : l1 ≡ₚ l2 → bucket_nodes h depth l1 = bucket_nodes h depth l2.
  Proof.
    intros Hp. apply map_ext. intros i. apply from_digests_perm.
    unfold bucket_digests, digests. by rewrite Hp.
  Qed.

  Lemma from_state_perm depth l1 l2 : l1 ≡ₚ l2 → from_state h depth l1 = from_state h depth l2.
  Proof. intros Hp. unfold from_state. by rewrite (bucket_nodes_perm _ _ _ Hp). Qed.

  Lemma from_state_same_map (depth : N) (m : gmap (list N) rvalue) (la lb : list (list N * rvalue)) :
    la ≡ₚ map_to_list m → lb ≡ₚ map_to_list m →
    from_state h depth la = from_state h depth lb ∧
    differs (from_state h depth la) (from_state h depth lb) = false.
  Proof.
    intros Ha Hb. rewrite (from_state_perm depth la lb) by (by rewrite Ha, Hb).
    split; [reflexivity|apply differs_refl].
  Qed.
End perm.

Section blind.
  Variable h : list N → N.

  Definition same_visible (e1 e2 : list N * rvalue) : Prop :=
    e1.1 = e2.1 ∧ rv_ts e1.2 = rv_ts e2.2 ∧ rv_get e1.2 = rv_get e2.2.

  Lemma digests_same_visible l1 l2 : Forall2 same_visible l1 l2 → digests h l1 = digests h l2.
  Proof.
    induction 1 as [|[k1 v1] [k2 v2] l1 l2 (Hk & Ht & Hg) _ IH]; [reflexivity|].
    simpl in *. subst k2. unfold digests in *. simpl.
    rewrite IH. unfold key_digest, value_bytes. by rewrite Ht, Hg.
  Qed.

  Lemma from_state_same_visible depth l1 l2 :
    Forall2 same_visible l1 l2 → from_state h depth l1 = from_state h depth l2.
  Proof.
    intros H. unfold from_state, bucket_nodes. by rewrite (digests_same_visible _ _ H).
  Qed.
End blind.

(* witness of finding C18-digest-blind: replica A merged both HSETs, replica B has only
   the later one; the outer stamps agree (max), get() is None on both sides. *)
Definition hash_rv (fs : list (list N * lww)) (t r : N) : rvalue :=
  RV (CHash (list_to_map fs)) None None (Stamp t r) None.
Definition blind_x : rvalue := hash_rv [([102;49], Lww (Some [49]) (Stamp 1 1) false)] 1 1.
Definition blind_y : rvalue := hash_rv [([102;50], Lww (Some [50]) (Stamp 2 2) false)] 2 2.
Definition blind_a : list (list N * rvalue) := [([107], rv_merge blind_x blind_y)].
Definition blind_b : list (list N * rvalue) := [([107], blind_y)].

Lemma blind_witness :
  obs (rv_merge blind_x blind_y) ≠ obs blind_y ∧
  DigestBlind (rv_merge blind_x blind_y) ∧ DigestBlind blind_y ∧
  ∀ (h : list N → N) depth,
    from_state h depth blind_a = from_state h depth blind_b ∧
    differs (from_state h depth blind_a) (from_state h depth blind_b) = false.
Proof.
  split; [|split; [|split]].
  - compute_done.
  - intros (r & Hr & _). discriminate Hr.
  - intros (r & Hr & _). discriminate Hr.
  - intros h depth.
    rewrite (from_state_same_visible h depth blind_a blind_b) by repeat constructor.
    split; [reflexivity|apply differs_refl].
Qed.

Notation mergeo := (union_with (λ a b : rvalue, Some (rv_merge a b))) (only parsing).

Lemma apply_delta_lookup (m : gmap (list N) rvalue) k0 v0 k :
  apply_delta m (k0, v0) !! k =
  if decide (k = k0) then mergeo (m !! k0) (Some v0) else m !! k.
Proof.
  unfold apply_delta; simpl. destruct (decide (k = k0)) as [->|Hne].
  - destruct (m !! k0); by rewrite lookup_insert.
  - destruct (m !! k0); by rewrite lookup_insert_ne.
Qed.

Lemma apply_deltas_lookup ds : ∀ (m : gmap (list N) rvalue) k,
  NoDup (ds.*1) →
  apply_deltas m ds !! k = mergeo (m !! k) ((list_to_map ds : gmap (list N) rvalue) !! k).
Proof.
  induction ds as [|[k0 v0] ds IH]; intros m k Hnd.
  - simpl. rewrite lookup_empty. by destruct (m !! k).
  - apply NoDup_cons in Hnd as [Hnotin Hnd]. simpl in Hnotin.
    unfold apply_deltas in *. simpl. rewrite (IH _ _ Hnd), apply_delta_lookup.
    destruct (decide (k = k0)) as [->|Hne].
    + rewrite lookup_insert, (not_elem_of_list_to_map_1 _ _ Hnotin).
      destruct (m !! k0); reflexivity.
    + by rewrite lookup_insert_ne.
Qed.

Lemma mergeo_comm (a b : option rvalue) :
  (∀ x y, a = Some x → b = Some y → Compatible x y) → mergeo a b = mergeo b a.
Proof.
  intros Hc. destruct a as [x|], b as [y|]; simpl; try reflexivity.
  f_equal. apply rv_merge_comm. by apply Hc.
Qed.

Lemma divergent_from_same x : ∀ b, divergent_from b x x = [].
Proof.
  induction x as [|a x IH]; intros b; [reflexivity|].
  simpl. rewrite bool_decide_true by done. apply IH.
Qed.

(* The model uses [map]; stdpp's lemmas speak of [<$>], which is convertible to it but not
   the same term, so they apply and do not rewrite. *)
Lemma elem_of_list_map {A B} (f : A → B) (l : list A) y : y ∈ map f l ↔ ∃ x, y = f x ∧ x ∈ l.
Proof. apply elem_of_list_fmap. Qed.

Lemma NoDup_fmap_filter {A B} (f : A → B) (P : A → Prop) `{∀ x, Decision (P x)} l :
  NoDup (f <$> l) → NoDup (f <$> filter P l).
Proof.
  induction l as [|a l IH]; [constructor|].
  rewrite fmap_cons, filter_cons. intros Hnd. apply NoDup_cons in Hnd as [Hni Hnd].
  destruct (decide (P a)); [|by apply IH].
  rewrite fmap_cons. apply NoDup_cons. split; [|by apply IH].
  intros Hin. apply Hni. apply elem_of_list_fmap in Hin as (b & -> & Hin).
  apply elem_of_list_filter in Hin as [_ Hin]. apply elem_of_list_fmap. by exists b.
Qed.

Lemma list_filter_map {A B} (f : A → B) (P : B → Prop) `{∀ x, Decision (P x)} (l : list A) :
  filter P (map f l) = map f (filter (λ x, P (f x)) l).
Proof.
  induction l as [|a l IH]; [reflexivity|]. simpl. rewrite !filter_cons.
  destruct (decide (P (f a))); simpl; by rewrite IH.
Qed.

Section sync.
  Variable h : list N → N.
  Variable depth : N.

  Lemma list_to_map_filter_buckets bs (l : list (list N * rvalue)) k :
    (list_to_map (filter (in_buckets h depth bs) l) : gmap (list N) rvalue) !! k =
    if decide (key_bucket h depth k ∈ bs)
    then (list_to_map l : gmap (list N) rvalue) !! k else None.
  Proof.
    induction l as [|[k0 v0] l IH].
    - simpl. rewrite lookup_empty. by destruct (decide _).
    - rewrite filter_cons. destruct (decide (in_buckets h depth bs (k0, v0))) as [Hin|Hnin];
        unfold in_buckets in *; simpl in *.
      + destruct (decide (k = k0)) as [->|Hne].
        * rewrite !lookup_insert. by destruct (decide (key_bucket h depth k0 ∈ bs)).
        * rewrite !lookup_insert_ne by done. apply IH.
      + rewrite IH. destruct (decide (k = k0)) as [->|Hne].
        * by destruct (decide (key_bucket h depth k0 ∈ bs)).
        * by rewrite lookup_insert_ne.
  Qed.

  Lemma round_side limit (la lb : list (list N * rvalue)) dv k :
    NoDup (lb.*1) →
    (length (filter (in_buckets h depth dv) lb) ≤ limit)%nat →
    apply_deltas (list_to_map la) (keys_in_buckets h depth limit dv lb) !! k =
    if decide (key_bucket h depth k ∈ dv)
    then mergeo ((list_to_map la : gmap (list N) rvalue) !! k)
                ((list_to_map lb : gmap (list N) rvalue) !! k)
    else (list_to_map la : gmap (list N) rvalue) !! k.
  Proof.
    intros Hnd Hcov. unfold keys_in_buckets. rewrite take_ge by done.
    rewrite apply_deltas_lookup by (by apply NoDup_fmap_filter).
    rewrite list_to_map_filter_buckets. destruct (decide _); [reflexivity|].
    by destruct (list_to_map la !! k).
  Qed.

  Definition node_at (l : list (list N * rvalue)) (i : N) : node :=
    from_digests h (bucket_digests depth (digests h l) i).

  Lemma bucket_nodes_node_at l : bucket_nodes h depth l = map (node_at l) (bucket_ids depth).
  Proof. reflexivity. Qed.

  Lemma low_bits_lt x : low_bits depth x < 2 ^ depth.
  Proof.
    rewrite low_bits_mod. apply N.mod_lt, N.pow_nonzero. lia.
  Qed.

  Lemma elem_of_bucket_ids i : i ∈ bucket_ids depth ↔ i < 2 ^ depth.
  Proof.
    unfold bucket_ids. rewrite elem_of_list_map. split.
    - intros (j & -> & Hj). apply elem_of_seq in Hj. lia.
    - intros Hi. exists (N.to_nat i). split; [lia|]. apply elem_of_seq. lia.
  Qed.

  Lemma key_bucket_in_ids k : key_bucket h depth k ∈ bucket_ids depth.
  Proof. apply elem_of_bucket_ids, low_bits_lt. Qed.

  Lemma divergent_from_map (F G : N → node) n : ∀ s,
    divergent_from (N.of_nat s) (map F (map N.of_nat (seq s n))) (map G (map N.of_nat (seq s n)))
    = filter (λ i, F i ≠ G i) (map N.of_nat (seq s n)).
  Proof.
    induction n as [|n IH]; intros s; [reflexivity|].
    simpl. rewrite filter_cons.
    replace (N.of_nat s + 1) with (N.of_nat (S s)) by lia. rewrite IH.
    destruct (decide (F (N.of_nat s) = G (N.of_nat s))) as [He|Hne].
    - rewrite bool_decide_true by done. rewrite decide_False by (intros Hx; by apply Hx). reflexivity.
    - rewrite bool_decide_false by done. rewrite decide_True by done. reflexivity.
  Qed.

  Lemma divergent_buckets_spec la lb :
    divergent_buckets (from_state h depth la) (from_state h depth lb)
    = filter (λ i, node_at la i ≠ node_at lb i) (bucket_ids depth).
  Proof.
    unfold divergent_buckets, from_state; simpl. rewrite !bucket_nodes_node_at.
    unfold bucket_ids. apply (divergent_from_map (node_at la) (node_at lb) _ 0%nat).
  Qed.

  Lemma bucket_digests_entries l i :
    bucket_digests depth (digests h l) i
    = digests h (filter (λ kv, key_bucket h depth kv.1 = i) l).
  Proof. unfold bucket_digests, digests. apply list_filter_map. Qed.

  Lemma node_at_ext (m1 m2 : gmap (list N) rvalue) l1 l2 i :
    l1 ≡ₚ map_to_list m1 → l2 ≡ₚ map_to_list m2 →
    (∀ k, key_bucket h depth k = i → m1 !! k = m2 !! k) →
    node_at l1 i = node_at l2 i.
  Proof.
    intros H1 H2 Hext. unfold node_at. apply from_digests_perm.
    rewrite !bucket_digests_entries. apply Permutation_map.
    apply NoDup_Permutation.
    - apply NoDup_filter. rewrite H1. apply NoDup_map_to_list.
    - apply NoDup_filter. rewrite H2. apply NoDup_map_to_list.
    - intros [k v]. rewrite !elem_of_list_filter, H1, H2, !elem_of_map_to_list. simpl.
      split.
      + intros [Hk Hv]. split; [done|]. by rewrite <- (Hext k Hk).
      + intros [Hk Hv]. split; [done|]. by rewrite (Hext k Hk).
  Qed.

  Lemma nodes_equal_digest_equal la lb :
    (∀ i, i ∈ bucket_ids depth → node_at la i = node_at lb i) →
    from_state h depth la = from_state h depth lb.
  Proof.
    intros Heq. unfold from_state. rewrite !bucket_nodes_node_at.
    assert (map (node_at la) (bucket_ids depth) = map (node_at lb) (bucket_ids depth)) as ->; [|done].
    apply map_ext_in. intros i Hi. apply Heq. by apply elem_of_list_In.
  Qed.

  Section round.
    Variable limit : nat.
    Variables la lb : list (list N * rvalue).
    Hypothesis Hna : NoDup (la.*1).
    Hypothesis Hnb : NoDup (lb.*1).
    Let A : gmap (list N) rvalue := list_to_map la.
    Let B : gmap (list N) rvalue := list_to_map lb.
    Let dv := divergent_buckets (from_state h depth la) (from_state h depth lb).
    Hypothesis Hdif : differs (from_state h depth la) (from_state h depth lb) = true.
    Hypothesis Hca : (length (filter (in_buckets h depth dv) la) ≤ limit)%nat.
    Hypothesis Hcb : (length (filter (in_buckets h depth dv) lb) ≤ limit)%nat.

    Lemma sync_round_lookup k :
      (sync_round h depth limit la lb).1 !! k =
        (if decide (key_bucket h depth k ∈ dv) then mergeo (A !! k) (B !! k) else A !! k) ∧
      (sync_round h depth limit la lb).2 !! k =
        (if decide (key_bucket h depth k ∈ dv) then mergeo (B !! k) (A !! k) else B !! k).
    Proof.
      unfold sync_round, sync_exchange. rewrite Hdif. fold dv.
      destruct dv as [|d0 dv0]; simpl.
      - destruct (decide (key_bucket h depth k ∈ [])) as [Hx|]; [inversion Hx|done].
      - split; by apply round_side.
    Qed.

    Theorem sync_round_merges :
      let A' := (sync_round h depth limit la lb).1 in
      let B' := (sync_round h depth limit la lb).2 in
      (∀ k, key_bucket h depth k ∈ dv →
            A' !! k = mergeo (A !! k) (B !! k) ∧ B' !! k = mergeo (B !! k) (A !! k)) ∧
      (∀ k, key_bucket h depth k ∉ dv → A' !! k = A !! k ∧ B' !! k = B !! k) ∧
      ((∀ k a b, A !! k = Some a → B !! k = Some b → Compatible a b) →
       (∀ k, key_bucket h depth k ∈ dv → A' !! k = B' !! k) ∧
       ∀ la' lb', la' ≡ₚ map_to_list A' → lb' ≡ₚ map_to_list B' →
         from_state h depth la' = from_state h depth lb' ∧
         differs (from_state h depth la') (from_state h depth lb') = false ∧
         divergent_buckets (from_state h depth la') (from_state h depth lb') = []).
    Proof.
      intros A' B'.
      assert (Hin : ∀ k, key_bucket h depth k ∈ dv →
                A' !! k = mergeo (A !! k) (B !! k) ∧ B' !! k = mergeo (B !! k) (A !! k)).
      { intros k Hk. pose proof (sync_round_lookup k) as Hl. by rewrite !decide_True in Hl. }
      assert (Hout : ∀ k, key_bucket h depth k ∉ dv → A' !! k = A !! k ∧ B' !! k = B !! k).
      { intros k Hk. pose proof (sync_round_lookup k) as Hl. by rewrite !decide_False in Hl. }
      split; [exact Hin|]. split; [exact Hout|]. intros Hcompat.
      assert (Heq : ∀ k, key_bucket h depth k ∈ dv → A' !! k = B' !! k).
      { intros k Hk. destruct (Hin k Hk) as [-> ->]. apply mergeo_comm. intros x y. apply Hcompat. }
      split; [exact Heq|]. intros la' lb' Hla' Hlb'.
      assert (Hfs : from_state h depth la' = from_state h depth lb').
      { apply nodes_equal_digest_equal. intros i Hi.
        destruct (decide (i ∈ dv)) as [Hdv|Hdv].
        - apply (node_at_ext A' B'); [done|done|]. intros k <-. by apply Heq.
        - (* an untouched bucket: it was equal before, or it would be in dv *)
          transitivity (node_at la i); [|transitivity (node_at lb i)].
          + apply (node_at_ext A' A); [done|symmetry; by apply map_to_list_to_map|].
            intros k <-. by apply Hout.
          + apply dec_stable. intros Hne. apply Hdv. unfold dv.
            rewrite divergent_buckets_spec. by apply elem_of_list_filter.
          + apply (node_at_ext B B'); [symmetry; by apply map_to_list_to_map|done|].
            intros k <-. symmetry. by apply Hout. }
      rewrite Hfs. split; [reflexivity|]. split; [apply differs_refl|apply divergent_from_same].
    Qed.
  End round.
End sync.

Lemma Covering_long_limit h depth limit (la lb : list (list N * rvalue)) :
  (length la ≤ limit)%nat → (length lb ≤ limit)%nat → Covering h depth limit la lb.
Proof. intros Ha Hb. split; (etrans; [apply filter_length|done]). Qed.

Lemma sync_rounds_fixed ord h depth limit s s1 :
  sync_round_ord ord h depth limit s = s1 → sync_round_ord ord h depth limit s1 = s1 →
  ∀ n, sync_rounds ord h depth limit (S n) s = s1.
Proof.
  intros Hs Hfix n. simpl. rewrite Hs. clear Hs.
  induction n as [|n IH]; [reflexivity|]. simpl. by rewrite Hfix.
Qed.

Definition lwwv (b : list N) (t r : N) : rvalue :=
  RV (CLww (Lww (Some b) (Stamp t r) false)) None None (Stamp t r) None.

Lemma lwwv_visible b t r : t < M64 → r < M64 → DigestVisible (lwwv b t r).
Proof. intros Ht Hr. eexists. repeat split; try reflexivity; try done; discriminate. Qed.

(* witness of finding C18-limit-starvation: depth 0, limit 1, iteration order map_to_list;
   A holds two keys, B none.  The first round brings B the key that comes first in A's
   order ([starve_B1]); every later round sends that key again. *)
Definition starve_A : gmap (list N) rvalue :=
  {[ [107;49] := lwwv [97] 1 1; [107;50] := lwwv [98] 2 1 ]}.
Definition starve_B : gmap (list N) rvalue := ∅.
Definition starve_B1 : gmap (list N) rvalue := {[ [107;49] := lwwv [97] 1 1 ]}.

Lemma starve_witness :
  ShortLimit sip13f 0 1 (map_to_list starve_A) (map_to_list starve_B) ∧
  (∀ a b, starve_A !! a = Some b → DigestVisible b) ∧
  ∀ n, let s := sync_rounds map_to_list sip13f 0 1 n (starve_A, starve_B) in
       differs (from_state sip13f 0 (map_to_list s.1)) (from_state sip13f 0 (map_to_list s.2)) = true ∧
       s.1 !! [107;50] = Some (lwwv [98] 2 1) ∧ s.2 !! [107;50] = None.
Proof.
  (* two digests serve all the evaluations below: evaluate each once *)
  eassert (DA : from_state sip13f 0 (map_to_list starve_A) = _) by (vm_compute; reflexivity).
  eassert (DB : from_state sip13f 0 (map_to_list starve_B1) = _) by (vm_compute; reflexivity).
  assert (Hfirst : sync_round_ord map_to_list sip13f 0 1 (starve_A, starve_B) = (starve_A, starve_B1)).
  { unfold sync_round_ord, sync_round. cbn [fst snd]. rewrite DA. compute_done. }
  assert (Hfixed : sync_round_ord map_to_list sip13f 0 1 (starve_A, starve_B1) = (starve_A, starve_B1)).
  { unfold sync_round_ord, sync_round. cbn [fst snd]. rewrite DA, DB. compute_done. }
  split; [|split].
  - (* evaluated in the goal: a conversion made in a hypothesis is checked again without the VM *)
    intros [H _]. revert H. rewrite DA. compute_done.
  - intros a b Hab. unfold starve_A in Hab.
    apply lookup_insert_Some in Hab as [[_ <-]|[_ Hab]];
      [|apply lookup_singleton_Some in Hab as [_ <-]]; by apply lwwv_visible.
  - intros [|n].
    + cbn [sync_rounds fst snd]. rewrite DA. vm_compute. repeat split.
    + rewrite (sync_rounds_fixed _ _ _ _ _ _ Hfirst Hfixed).
      cbn [fst snd]. rewrite DA, DB. vm_compute. repeat split.
Qed.

Lemma le_val_le_bytes n : ∀ x, le_val (le_bytes n x) = x mod 256 ^ N.of_nat n.
Proof.
  induction n as [|n IH]; intros x.
  - simpl. by rewrite N.mod_1_r.
  - cbn [le_bytes le_val]. rewrite IH.
    replace (256 ^ N.of_nat (S n)) with (256 * 256 ^ N.of_nat n).
    + rewrite N.mod_mul_r; [reflexivity|lia|]. apply N.pow_nonzero. lia.
    + rewrite Nat2N.inj_succ, N.pow_succ_r'. reflexivity.
Qed.

Lemma le64f_inj x y : x < M64 → y < M64 → le64f x = le64f y → x = y.
Proof.
  intros Hx Hy H. rewrite !le64f_eq in H. unfold le64 in H.
  apply (f_equal le_val) in H. rewrite !le_val_le_bytes in H.
  change (256 ^ N.of_nat 8) with M64 in H. by rewrite !N.mod_small in H.
Qed.

Lemma le64f_app_inj x1 x2 (r1 r2 : list N) :
  le64f x1 ++ r1 = le64f x2 ++ r2 → le64f x1 = le64f x2 ∧ r1 = r2.
Proof. intros H. by apply app_inj_1 in H. Qed.

Lemma le64f_app_inj_u64 x1 x2 (r1 r2 : list N) :
  x1 < M64 → x2 < M64 → le64f x1 ++ r1 = le64f x2 ++ r2 → x1 = x2 ∧ r1 = r2.
Proof. intros H1 H2 H. apply le64f_app_inj in H as [H ->]. split; [by apply le64f_inj|done]. Qed.

(* The stamp is read from the two 8-byte prefixes and get() from the rest; [DigestVisible]
   says that everything else in the value is fixed by those. *)
Lemma value_bytes_inj v1 v2 :
  DigestVisible v1 → DigestVisible v2 → value_bytes v1 = value_bytes v2 → v1 = v2.
Proof.
  intros (r1 & Hc1 & Hts1 & Htomb1 & Hvc1 & He1 & Hrf1 & Ht1 & Hr1)
         (r2 & Hc2 & Hts2 & Htomb2 & Hvc2 & He2 & Hrf2 & Ht2 & Hr2) H.
  unfold value_bytes in H.
  apply le64f_app_inj_u64 in H as [Htime H]; [|done..].
  apply le64f_app_inj_u64 in H as [Hrid H]; [|done..].
  assert (Hg : rv_get v1 = rv_get v2).
  { destruct (rv_get v1) as [b1|], (rv_get v2) as [b2|]; try done.
    - apply le64f_app_inj in H as [_ ->]. done. }
  clear H Ht1 Hr1 Ht2 Hr2.
  destruct v1 as [c1 vc1 e1 [t1 i1] rf1], v2 as [c2 vc2 e2 [t2 i2] rf2].
  cbn [rv_crdt rv_vc rv_exp rv_ts rv_rf st_time st_rid] in *.
  subst. unfold rv_get in Hg. cbn [rv_crdt] in Hg.
  destruct r1 as [val1 ts1 tomb1], r2 as [val2 ts2 tomb2].
  cbn [lw_val lw_ts lw_tomb] in *. subst.
  unfold lww_get in Hg. cbn [lw_val lw_tomb] in Hg.
  assert (val1 = val2 ∧ tomb1 = tomb2) as [-> ->]; [|reflexivity].
  destruct tomb1, tomb2.
  - by rewrite (proj1 Htomb1 eq_refl), (proj1 Htomb2 eq_refl).
  - exfalso. pose proof (proj2 Htomb2 (eq_sym Hg)). discriminate.
  - exfalso. pose proof (proj2 Htomb1 Hg). discriminate.
  - by split.
Qed.

Lemma Permutation_map_inj_on {A B} (f : A → B) (P : A → Prop) (l1 l2 : list A) :
  (∀ x y, P x → P y → f x = f y → x = y) → Forall P l1 → Forall P l2 →
  map f l1 ≡ₚ map f l2 → l1 ≡ₚ l2.
Proof.
  intros Hinj. revert l2. induction l1 as [|x l1 IH]; intros l2 H1 H2 Hp.
  - apply Permutation_nil_l in Hp. by destruct l2.
  - apply Forall_cons in H1 as [Px H1].
    assert (Hin : f x ∈ map f l2) by (rewrite <- Hp; left).
    apply elem_of_list_map in Hin as (y & Hxy & Hy).
    apply elem_of_Permutation in Hy as [l2' Hl2']. rewrite Hl2' in H2, Hp |- *.
    apply Forall_cons in H2 as [Py H2]. apply Hinj in Hxy as <-; [|done..].
    constructor. apply IH; [done..|]. by apply Permutation_cons_inv in Hp.
Qed.

Section classes.
  Context {A B : Type} (f : A → B) (b : A → N).

  Lemma filter_split_lt (l : list A) (n : nat) :
    filter (λ x, b x < N.of_nat (S n)) l ≡ₚ
    filter (λ x, b x < N.of_nat n) l ++ filter (λ x, b x = N.of_nat n) l.
  Proof.
    induction l as [|x l IH]; [reflexivity|].
    rewrite !filter_cons.
    destruct (decide (b x < N.of_nat n)) as [Hlt|Hnlt].
    - rewrite decide_True by lia. rewrite decide_False by lia. simpl. by rewrite IH.
    - destruct (decide (b x = N.of_nat n)) as [He|Hne].
      + rewrite decide_True by lia. rewrite IH. by rewrite Permutation_middle.
      + rewrite decide_False by lia. exact IH.
  Qed.

  Lemma perm_by_classes (l1 l2 : list A) (n : nat) :
    (∀ x, b x < N.of_nat n) →
    (∀ i, i < N.of_nat n → map f (filter (λ x, b x = i) l1) ≡ₚ map f (filter (λ x, b x = i) l2)) →
    map f l1 ≡ₚ map f l2.
  Proof.
    intros Hb H.
    assert (Hm : ∀ m, (m ≤ n)%nat → map f (filter (λ x, b x < N.of_nat m) l1) ≡ₚ
                                    map f (filter (λ x, b x < N.of_nat m) l2)).
    { induction m as [|m IH]; intros Hle.
      - assert (Hnone : ∀ l : list A, filter (λ x, b x < N.of_nat 0) l = []).
        { induction l as [|x l IHl]; [done|]. rewrite filter_cons, decide_False by lia. exact IHl. }
        by rewrite !Hnone.
      - rewrite !filter_split_lt, !map_app. f_equiv; [apply IH; lia|apply H; lia]. }
    assert (Hall : ∀ l : list A, filter (λ x, b x < N.of_nat n) l = l).
    { induction l as [|x l IHl]; [done|]. by rewrite filter_cons, decide_True, IHl. }
    specialize (Hm n (le_n n)). by rewrite !Hall in Hm.
  Qed.
End classes.

Definition kv_of (d : kdigest) : N * N := (kd_key d, kd_val d).
Definition kd_u64 (d : kdigest) : Prop := kd_key d < M64 ∧ kd_val d < M64.

Lemma enc_digests_inj s1 : ∀ s2, Forall kd_u64 s1 → Forall kd_u64 s2 →
  enc_digests s1 = enc_digests s2 → map kv_of s1 = map kv_of s2.
Proof.
  induction s1 as [|d1 s1 IH]; intros [|d2 s2] H1 H2 He.
  - reflexivity.
  - discriminate He.
  - discriminate He.
  - unfold enc_digests in He. cbn [flat_map] in He. rewrite <- !app_assoc in He.
    apply Forall_cons in H1 as [[Rk1 Rv1] H1]. apply Forall_cons in H2 as [[Rk2 Rv2] H2].
    apply le64f_app_inj_u64 in He as [Hk He]; [|done..].
    apply le64f_app_inj_u64 in He as [Hv He]; [|done..].
    cbn [map]. unfold kv_of at 1 3. rewrite Hk, Hv. f_equal. by apply IH.
Qed.

Definition ebytes (e : list N * rvalue) : list N * list N := (key_bytes e.1, value_bytes e.2).

(* [h] is collision-free, non-zero and u64 on [Inp], and [Inp] contains the inputs of the digest
   computations in question: every hash can then be inverted, from the root downwards *)
Section inj.
  Variable h : list N → N.
  Variable depth : N.
  Variable Inp : list (list N).
  Hypothesis HS : HashOK h Inp.

  Definition node_wf (n : node) : Prop := (n_count n = 0 → n_hash n = 0) ∧ n_hash n < M64.

  Lemma HS_range x : x ∈ Inp → 0 < h x < M64.
  Proof. apply HS. Qed.
  Lemma HS_inj x y : x ∈ Inp → y ∈ Inp → h x = h y → x = y.
  Proof. apply HS. Qed.

  Lemma node_wf_empty : node_wf node_empty.
  Proof. split; [done|]. reflexivity. Qed.

  Lemma node_wf_combine a b : combine_bytes a b ∈ Inp → node_wf (combine h a b).
  Proof.
    intros Hin. unfold combine.
    destruct ((n_count a =? 0) && (n_count b =? 0)) eqn:Hz; [apply node_wf_empty|].
    split; simpl.
    - intros H0. exfalso. apply andb_false_iff in Hz.
      rewrite !N.eqb_neq in Hz. lia.
    - apply HS_range, Hin.
  Qed.

  Lemma node_wf_from_digests ds : enc_digests (bucket_order ds) ∈ Inp → node_wf (from_digests h ds).
  Proof.
    intros Hin. destruct ds as [|d ds]; [apply node_wf_empty|].
    split; simpl.
    - lia.
    - apply HS_range, Hin.
  Qed.

  Lemma combine_hash_inj a1 b1 a2 b2 :
    node_wf a1 → node_wf b1 → node_wf a2 → node_wf b2 →
    combine_bytes a1 b1 ∈ Inp → combine_bytes a2 b2 ∈ Inp →
    n_hash (combine h a1 b1) = n_hash (combine h a2 b2) →
    n_hash a1 = n_hash a2 ∧ n_hash b1 = n_hash b2.
  Proof.
    intros [Ha1 Ra1] [Hb1 Rb1] [Ha2 Ra2] [Hb2 Rb2] Hin1 Hin2. unfold combine.
    destruct ((n_count a1 =? 0) && (n_count b1 =? 0)) eqn:Hz1;
      destruct ((n_count a2 =? 0) && (n_count b2 =? 0)) eqn:Hz2; simpl; intros He.
    - apply andb_true_iff in Hz1 as [?%N.eqb_eq ?%N.eqb_eq].
      apply andb_true_iff in Hz2 as [?%N.eqb_eq ?%N.eqb_eq].
      rewrite Ha1, Hb1, Ha2, Hb2 by done. done.
    - pose proof (HS_range _ Hin2). lia.
    - pose proof (HS_range _ Hin1). lia.
    - apply HS_inj in He; [|done..]. unfold combine_bytes in He.
      apply le64f_app_inj_u64 in He as [H1 H2]; [|done..].
      split; [done|by apply le64f_inj].
  Qed.

  Lemma chain_inj (F G : N → node) ids : ∀ a1 a2,
    node_wf a1 → node_wf a2 → (∀ i, i ∈ ids → node_wf (F i) ∧ node_wf (G i)) →
    (∀ x, x ∈ chain_inputs h a1 (map F ids) → x ∈ Inp) →
    (∀ x, x ∈ chain_inputs h a2 (map G ids) → x ∈ Inp) →
    n_hash (fold_left (combine h) (map F ids) a1) = n_hash (fold_left (combine h) (map G ids) a2) →
    n_hash a1 = n_hash a2 ∧ ∀ i, i ∈ ids → n_hash (F i) = n_hash (G i).
  Proof.
    induction ids as [|j ids IH]; intros a1 a2 Wa1 Wa2 W Hin1 Hin2 He; simpl in *.
    - split; [done|]. intros i Hi. by apply elem_of_nil in Hi.
    - destruct (W j) as [Wf Wg]; [left|].
      assert (Hc1 : combine_bytes a1 (F j) ∈ Inp) by (apply Hin1; left).
      assert (Hc2 : combine_bytes a2 (G j) ∈ Inp) by (apply Hin2; left).
      destruct (IH (combine h a1 (F j)) (combine h a2 (G j))) as [Hc Hr].
      + by apply node_wf_combine.
      + by apply node_wf_combine.
      + intros i Hi. apply W. by right.
      + intros x Hx. apply Hin1. by right.
      + intros x Hx. apply Hin2. by right.
      + exact He.
      + apply combine_hash_inj in Hc as [? ?]; try done. split; [done|].
        intros i Hi. apply elem_of_cons in Hi as [->|Hi]; [done|by apply Hr].
  Qed.

  Lemma from_digests_hash_inj ds1 ds2 :
    enc_digests (bucket_order ds1) ∈ Inp → enc_digests (bucket_order ds2) ∈ Inp →
    Forall kd_u64 ds1 → Forall kd_u64 ds2 →
    n_hash (from_digests h ds1) = n_hash (from_digests h ds2) →
    map kv_of ds1 ≡ₚ map kv_of ds2.
  Proof.
    intros Hin1 Hin2 R1 R2 He.
    destruct ds1 as [|d1 ds1], ds2 as [|d2 ds2].
    - reflexivity.
    - simpl in He. pose proof (HS_range _ Hin2). lia.
    - simpl in He. pose proof (HS_range _ Hin1). lia.
    - simpl in He. apply HS_inj in He; [|done..].
      apply enc_digests_inj in He.
      + rewrite <- (bucket_order_Permutation (d1 :: ds1)), <- (bucket_order_Permutation (d2 :: ds2)).
        by rewrite He.
      + by rewrite bucket_order_Permutation.
      + by rewrite bucket_order_Permutation.
  Qed.

  Lemma in_inputs_key l e : e ∈ l → key_bytes e.1 ∈ hash_inputs h depth l.
  Proof.
    intros He. unfold hash_inputs. apply elem_of_app. left. apply elem_of_list_map. by exists e.
  Qed.
  Lemma in_inputs_val l e : e ∈ l → value_bytes e.2 ∈ hash_inputs h depth l.
  Proof.
    intros He. unfold hash_inputs. apply elem_of_app. right. apply elem_of_app. left.
    apply elem_of_list_map. by exists e.
  Qed.
  Lemma in_inputs_bucket l i :
    i ∈ bucket_ids depth →
    enc_digests (bucket_order (bucket_digests depth (digests h l) i)) ∈ hash_inputs h depth l.
  Proof.
    intros Hi. unfold hash_inputs. apply elem_of_app. right. apply elem_of_app. right.
    apply elem_of_app. left. apply elem_of_list_map. by exists i.
  Qed.
  Lemma in_inputs_chain l i0 ids x :
    bucket_ids depth = i0 :: ids →
    x ∈ chain_inputs h (node_at h depth l i0) (map (node_at h depth l) ids) →
    x ∈ hash_inputs h depth l.
  Proof.
    intros Hids Hx. unfold hash_inputs. apply elem_of_app. right. apply elem_of_app. right.
    apply elem_of_app. right. unfold bucket_nodes. rewrite Hids. exact Hx.
  Qed.

  Lemma bucket_u64 l i :
    hash_inputs h depth l ⊆ Inp → Forall kd_u64 (bucket_digests depth (digests h l) i).
  Proof.
    intros Hl. apply Forall_forall. intros d Hd.
    apply elem_of_list_filter in Hd as [_ Hd]. apply elem_of_list_map in Hd as (e & -> & He).
    split; apply HS_range, Hl; [by apply in_inputs_key|by apply in_inputs_val].
  Qed.

  Lemma node_wf_node_at l i :
    hash_inputs h depth l ⊆ Inp → i ∈ bucket_ids depth → node_wf (node_at h depth l i).
  Proof. intros Hl Hi. apply node_wf_from_digests, Hl. by apply in_inputs_bucket. Qed.

  Definition entry_hashes (e : list N * rvalue) : N * N := (h (key_bytes e.1), h (value_bytes e.2)).

  Lemma kv_digests l : map kv_of (digests h l) = map entry_hashes l.
  Proof. unfold digests. rewrite map_map. reflexivity. Qed.

  Section roots.
    Variables l1 l2 : list (list N * rvalue).
    Hypothesis In1 : hash_inputs h depth l1 ⊆ Inp.
    Hypothesis In2 : hash_inputs h depth l2 ⊆ Inp.
    Hypothesis Hroot : sd_root (from_state h depth l1) = sd_root (from_state h depth l2).

    Lemma equal_root_equal_bucket_hashes i :
      i ∈ bucket_ids depth → n_hash (node_at h depth l1 i) = n_hash (node_at h depth l2 i).
    Proof.
      pose proof Hroot as Hr. unfold from_state in Hr. simpl in Hr.
      rewrite !bucket_nodes_node_at in Hr.
      pose proof (λ j, node_wf_node_at l1 j In1) as Hwf1. pose proof (λ j, node_wf_node_at l2 j In2) as Hwf2.
      pose proof (in_inputs_chain l1) as Hch1. pose proof (in_inputs_chain l2) as Hch2.
      destruct (bucket_ids depth) as [|i0 ids]; [intros Hi; by apply elem_of_nil in Hi|].
      simpl in Hr.
      destruct (chain_inj (node_at h depth l1) (node_at h depth l2) ids
                  (node_at h depth l1 i0) (node_at h depth l2 i0)) as [H0 Hi].
      - apply Hwf1. left.
      - apply Hwf2. left.
      - intros j Hj. split; [apply Hwf1|apply Hwf2]; by right.
      - intros x Hx. by eapply In1, Hch1.
      - intros x Hx. by eapply In2, Hch2.
      - exact Hr.
      - intros Hin. apply elem_of_cons in Hin as [->|Hin]; [done|by apply Hi].
    Qed.

    Theorem equal_root_same_bytes : map ebytes l1 ≡ₚ map ebytes l2.
    Proof.
      (* bucket by bucket, the same (key hash, value hash) pairs; hence over the whole state *)
      assert (Hkv : map entry_hashes l1 ≡ₚ map entry_hashes l2).
      { rewrite <- !kv_digests.
        apply (perm_by_classes kv_of (bucket_of depth) _ _ (N.to_nat (2 ^ depth))).
        - intros d. rewrite N2Nat.id. apply low_bits_lt.
        - intros i Hi. rewrite N2Nat.id in Hi. apply elem_of_bucket_ids in Hi.
          apply from_digests_hash_inj; try by apply bucket_u64.
          + by apply In1, in_inputs_bucket.
          + by apply In2, in_inputs_bucket.
          + by apply equal_root_equal_bucket_hashes. }
      (* the pair of hashes determines the pair of inputs *)
      assert (Hmem : ∀ l, hash_inputs h depth l ⊆ Inp → Forall (λ p, p.1 ∈ Inp ∧ p.2 ∈ Inp) (map ebytes l)).
      { intros l Hl. apply Forall_forall. intros p Hp. apply elem_of_list_map in Hp as (e & -> & He).
        split; [by apply Hl, in_inputs_key|by apply Hl, in_inputs_val]. }
      apply (Permutation_map_inj_on (λ p, (h p.1, h p.2)) (λ p, p.1 ∈ Inp ∧ p.2 ∈ Inp));
        [|by apply Hmem..|by rewrite !map_map].
      intros p q [] [] Hpq. injection Hpq as Hk Hv.
      apply HS_inj in Hk; [|done..]. apply HS_inj in Hv; [|done..].
      destruct p, q; simpl in *; congruence.
    Qed.
  End roots.
End inj.

Section visible.
  Variable h : list N → N.
  Variable depth : N.
  Variables l1 l2 : list (list N * rvalue).
  Hypothesis HS : HashOK h (hash_inputs h depth l1 ++ hash_inputs h depth l2).
  Hypothesis V1 : Forall (λ e, DigestVisible e.2) l1.
  Hypothesis V2 : Forall (λ e, DigestVisible e.2) l2.

  Theorem equal_digest_equal_state :
    sd_root (from_state h depth l1) = sd_root (from_state h depth l2) → l1 ≡ₚ l2.
  Proof.
    intros Hroot.
    (* for visible values the hashed bytes determine the entry *)
    apply (Permutation_map_inj_on ebytes (λ e, DigestVisible e.2)); [|exact V1|exact V2|].
    - intros e1 e2 D1 D2 Hb. apply pair_equal_spec in Hb as [Hk Hv].
      apply app_inv_tail in Hk. apply value_bytes_inj in Hv; [|done..].
      destruct e1, e2; simpl in *; congruence.
    - apply (equal_root_same_bytes h depth _ HS); [| |exact Hroot];
        intros x Hx; apply elem_of_app; [by left|by right].
  Qed.

  Lemma visible_states_differ :
    ¬ l1 ≡ₚ l2 → differs (from_state h depth l1) (from_state h depth l2) = true.
  Proof.
    intros Hne. unfold differs.
    destruct (sd_root (from_state h depth l1) =? sd_root (from_state h depth l2)) eqn:He; [|done].
    exfalso. apply Hne. apply N.eqb_eq in He. by apply equal_digest_equal_state.
  Qed.
End visible.

(* [hash_ok_b] is the executable form of [HashOK] that Model/Digest.v offers; it hashes
   every input once per pair, so the examples below go through [HashOK_values] instead. *)
Lemma hash_ok_b_sound h Inp : hash_ok_b h Inp = true → HashOK h Inp.
Proof.
  unfold hash_ok_b. rewrite andb_true_iff, !forallb_forall. intros [Hr Hi]. split.
  - intros x Hx. apply elem_of_list_In, Hr in Hx.
    apply andb_true_iff in Hx as [?%N.ltb_lt ?%N.ltb_lt]. done.
  - intros x y Hx Hy He. apply elem_of_list_In in Hx, Hy.
    specialize (Hi x Hx). rewrite forallb_forall in Hi. specialize (Hi y Hy).
    rewrite He, N.eqb_refl in Hi. simpl in Hi. by apply bool_decide_eq_true_1 in Hi.
Qed.

Lemma HashOK_values h (Inp : list (list N)) vs :
  vs = h <$> remove_dups Inp → Forall (λ v, 0 < v < M64) vs → NoDup vs → HashOK h Inp.
Proof.
  intros -> Hr Hnd. split.
  - intros x Hx. apply (proj1 (Forall_forall _ _) Hr), elem_of_list_fmap.
    exists x. by rewrite elem_of_remove_dups.
  - intros x y Hx Hy He.
    apply elem_of_remove_dups, elem_of_list_lookup in Hx as [i Hi], Hy as [j Hj].
    assert (i = j) as ->.
    { apply (NoDup_lookup _ _ _ (h x) Hnd); rewrite list_lookup_fmap; [by rewrite Hi|by rewrite Hj, He]. }
    congruence.
Qed.

Lemma HashOK_mono h (Inp Inp' : list (list N)) : HashOK h Inp' → Inp ⊆ Inp' → HashOK h Inp.
Proof. intros [Hr Hi] Hsub. split; [intros x Hx|intros x y Hx Hy]; auto. Qed.

Lemma HashOK_app_parts h (A B C : list (list N)) :
  HashOK h (A ++ B ++ C) → HashOK h (A ++ B) ∧ HashOK h (A ++ C).
Proof. intros H. split; apply (HashOK_mono _ _ _ H); intros x; rewrite !elem_of_app; tauto. Qed.

Lemma key_bucket_digest h depth k v : bucket_of depth (key_digest h k v) = key_bucket h depth k.
Proof. reflexivity. Qed.

Definition ex_e1 : list N * rvalue := ([107;49], lwwv [97] 1 1).
Definition ex_e2 : list N * rvalue := ([107;50], lwwv [98] 2 1).
Definition ex_e2' : list N * rvalue := ([107;50], lwwv [99] 2 1).
Definition ex_e3 : list N * rvalue := ([107;51], lwwv [] 3 2).
Definition ex_l1 : list (list N * rvalue) := [ex_e1; ex_e2; ex_e3].
Definition ex_l2 : list (list N * rvalue) := [ex_e3; ex_e1; ex_e2].
Definition ex_l3 : list (list N * rvalue) := [ex_e3; ex_e1; ex_e2'].

Lemma ex_inputs_ok :
  HashOK sip13f (hash_inputs sip13f 1 ex_l1 ++ hash_inputs sip13f 1 ex_l2 ++ hash_inputs sip13f 1 ex_l3).
Proof.
  (* [hash_inputs] mentions the digests of a state once per bucket and once more for the
     nodes: evaluate them beforehand, entry by entry, so that every key and value is hashed once *)
  eassert (K1 : key_digest sip13f ex_e1.1 ex_e1.2 = _) by (vm_compute; reflexivity).
  eassert (K2 : key_digest sip13f ex_e2.1 ex_e2.2 = _) by (vm_compute; reflexivity).
  eassert (K2' : key_digest sip13f ex_e2'.1 ex_e2'.2 = _) by (vm_compute; reflexivity).
  eassert (K3 : key_digest sip13f ex_e3.1 ex_e3.2 = _) by (vm_compute; reflexivity).
  eapply HashOK_values.
  - unfold hash_inputs, bucket_nodes, digests, ex_l1, ex_l2, ex_l3. cbn [map].
    rewrite K1, K2, K2', K3.
    vm_compute. reflexivity.
  - compute_done.
  - compute_done.
Qed.

Lemma ex_l1_l3_differ : ¬ ex_l1 ≡ₚ ex_l3.
Proof.
  intros Hp. assert (H : ex_e2' ∈ ex_l1) by (rewrite Hp; repeat constructor).
  unfold ex_l1 in H. rewrite !elem_of_cons, elem_of_nil in H.
  destruct H as [H|[H|[H|[]]]]; discriminate H.
Qed.

(* the roots of ex_l1 and ex_l2 agree because one is a permutation of the other; those of
   ex_l1 and ex_l3 differ by [visible_states_differ]: nothing but [ex_inputs_ok] is evaluated *)
Lemma ex_digest_witness :
  ex_l1 ≠ ex_l2 ∧
  HashOK sip13f (hash_inputs sip13f 1 ex_l1 ++ hash_inputs sip13f 1 ex_l2) ∧
  HashOK sip13f (hash_inputs sip13f 1 ex_l1 ++ hash_inputs sip13f 1 ex_l3) ∧
  Forall (λ e, DigestVisible e.2) ex_l1 ∧ Forall (λ e, DigestVisible e.2) ex_l2 ∧
  Forall (λ e, DigestVisible e.2) ex_l3 ∧
  sd_root (from_state sip13f 1 ex_l1) = sd_root (from_state sip13f 1 ex_l2) ∧
  differs (from_state sip13f 1 ex_l1) (from_state sip13f 1 ex_l3) = true.
Proof.
  destruct (HashOK_app_parts _ _ _ _ ex_inputs_ok) as [H12 H13].
  assert (V1 : Forall (λ e, DigestVisible e.2) ex_l1) by (repeat constructor; by apply lwwv_visible).
  assert (V3 : Forall (λ e, DigestVisible e.2) ex_l3) by (repeat constructor; by apply lwwv_visible).
  split; [discriminate|].
  split; [exact H12|]. split; [exact H13|]. split; [exact V1|].
  split; [repeat constructor; by apply lwwv_visible|]. split; [exact V3|].
  split.
  - apply (f_equal sd_root), from_state_perm. symmetry. exact (Permutation_cons_append [_; _] _).
  - apply visible_states_differ; [exact H13|exact V1|exact V3|exact ex_l1_l3_differ].
Qed.

Definition ex_sa : list (list N * rvalue) := [([107;49], lwwv [120] 1 1)].
Definition ex_sb : list (list N * rvalue) :=
  [([107;49], lwwv [121] 2 2); ([107;50], lwwv [122] 1 2)].

Lemma ex_sync_hyps :
  NoDup (ex_sa.*1) ∧ NoDup (ex_sb.*1) ∧
  differs (from_state sip13f 1 ex_sa) (from_state sip13f 1 ex_sb) = true ∧
  Covering sip13f 1 2 ex_sa ex_sb ∧
  (∀ k a b, (list_to_map ex_sa : gmap (list N) rvalue) !! k = Some a →
            (list_to_map ex_sb : gmap (list N) rvalue) !! k = Some b → Compatible a b) ∧
  (sync_round sip13f 1 2 ex_sa ex_sb).1 ≠ list_to_map ex_sa.
Proof.
  (* the two digests, used by [differs] and by the round, are evaluated once *)
  eassert (Da : from_state sip13f 1 ex_sa = _) by (vm_compute; reflexivity).
  eassert (Db : from_state sip13f 1 ex_sb = _) by (vm_compute; reflexivity).
  split; [compute_done|].
  split; [compute_done|].
  split; [rewrite Da, Db; reflexivity|].
  split; [apply Covering_long_limit; simpl; lia|].
  split.
  - intros k a b Ha Hb. unfold ex_sa in Ha. cbn [list_to_map foldr fst snd] in Ha.
    apply lookup_insert_Some in Ha as [[<- <-]|[_ Ha]]; [|by rewrite lookup_empty in Ha].
    unfold ex_sb in Hb. cbn [list_to_map foldr fst snd] in Hb.
    rewrite lookup_insert in Hb. injection Hb as <-.
    unfold Compatible, lww_compat, lwwv. cbn. intros Hts. discriminate.
  - unfold sync_round. rewrite Da, Db. compute_done.
Qed.
