(* Proofs about Model/WalActor.v: the repaired always-fsync actor never acks Ok a write
   that a crash could lose; the legacy rotator does (two computed witnesses).  The file
   ends with the concrete schedules and histories that Props/C09.v evaluates. *)
From Coq Require Import PeanoNat NArith List Bool Lia.
From RV Require Import Model.WalActor.
Import ListNotations.
Local Open Scope N_scope.

Lemma take_entries_app : forall l x w, In w (take_entries l) -> In w (take_entries (l ++ x)).
Proof.
  induction l as [|i l IH]; intros x w H; [destruct H|].
  destruct i; cbn in *; try contradiction.
  destruct H as [H|H]; [left; exact H|right; apply IH; exact H].
Qed.

Lemma read_file_app : forall l x w, In w (read_file l) -> In w (read_file (l ++ x)).
Proof.
  intros [|i l] x w H; [destruct H|].
  destruct i; cbn in *; try contradiction. apply take_entries_app; exact H.
Qed.

Lemma read_file_firstn : forall n l w, In w (read_file (firstn n l)) -> In w (read_file l).
Proof.
  intros n l w H. rewrite <- (firstn_skipn n l). apply read_file_app; exact H.
Qed.

Lemma In_insert_by_seq : forall p q l, In q (insert_by_seq p l) <-> q = p \/ In q l.
Proof.
  intros p q l; induction l as [|a l IH]; cbn.
  - split; intros [H|H]; auto; destruct H.
  - destruct (fst p <=? fst a); cbn.
    + split; intros [H|H]; auto.
    + rewrite IH. split; intros H; decompose [or] H; auto.
Qed.

Lemma In_sort_by_seq : forall q l, In q (sort_by_seq l) <-> In q l.
Proof.
  intros q l; induction l as [|a l IH]; cbn; [reflexivity|].
  rewrite In_insert_by_seq, IH. split; intros [H|H]; auto.
Qed.

Lemma recover_all_In : forall fs w,
  In w (recover_all fs) <-> exists p, In p fs /\ In w (read_file (f_items (snd p))).
Proof.
  intros fs w. unfold recover_all. rewrite in_flat_map.
  split; intros [p [H1 H2]]; exists p; split; auto; apply In_sort_by_seq; exact H1.
Qed.

Definition durable (fs : store) (w : N) : Prop := In w (recover_all (crash fs)).
Definition live_at (fs : store) (s : N) (w : N) : Prop :=
  exists f, In (s, f) fs /\ In w (read_file (f_items f)).

Lemma durable_iff : forall fs w,
  durable fs w <-> exists p, In p fs /\ In w (read_file (firstn (f_synced (snd p)) (f_items (snd p)))).
Proof.
  intros fs w. unfold durable. rewrite recover_all_In. unfold crash. split.
  - intros [p [H1 H2]]. apply in_map_iff in H1. destruct H1 as [q [<- H1]]. exists q; split; auto.
  - intros [p [H1 H2]]. exists (fst p, crash_file (snd p)). split; [|exact H2].
    apply in_map_iff. exists p; auto.
Qed.

(* [grows fs fs']: whatever a crash now or a later fsync of file [s] would save of [fs],
   it saves of [fs'] too. *)
Definition grows (fs fs' : store) : Prop :=
  forall w, (durable fs w -> durable fs' w) /\ (forall s, live_at fs s w -> live_at fs' s w).

Lemma grows_refl : forall fs, grows fs fs.
Proof. intros fs w. auto. Qed.

Lemma grows_trans : forall fs1 fs2 fs3, grows fs1 fs2 -> grows fs2 fs3 -> grows fs1 fs3.
Proof.
  intros fs1 fs2 fs3 G1 G2 w. split; [intros D|intros s L]; apply G2, G1; assumption.
Qed.

Definition ext (g : file -> file) : Prop :=
  forall f w,
    (In w (read_file (f_items f)) -> In w (read_file (f_items (g f)))) /\
    (In w (read_file (firstn (f_synced f) (f_items f))) ->
     In w (read_file (firstn (f_synced (g f)) (f_items (g f))))).

Lemma ext_push : forall x, ext (f_push x).
Proof.
  intros x f w; cbn. split; [apply read_file_app|]. rewrite firstn_app. apply read_file_app.
Qed.

Lemma ext_sync : ext f_sync.
Proof.
  intros f w; cbn. split; [auto|]. rewrite firstn_all. apply read_file_firstn.
Qed.

Lemma In_st_map : forall fs s g s' f,
  In (s', f) fs -> In (s', if N.eqb s' s then g f else f) (st_map fs s g).
Proof.
  induction fs as [|[a b] fs IH]; intros s g s' f H; [destruct H|].
  cbn. destruct H as [H|H].
  - inversion H; subst. destruct (N.eqb s' s); left; reflexivity.
  - destruct (N.eqb a s); right; apply IH; exact H.
Qed.

Lemma In_st_map_at : forall fs s g f, In (s, f) fs -> In (s, g f) (st_map fs s g).
Proof.
  intros fs s g f H. apply (In_st_map fs s g) in H. rewrite N.eqb_refl in H. exact H.
Qed.

Lemma st_map_names : forall fs s g, map fst (st_map fs s g) = map fst fs.
Proof.
  induction fs as [|[a b] fs IH]; intros s g; cbn; [reflexivity|].
  destruct (N.eqb a s); cbn; rewrite IH; reflexivity.
Qed.

Lemma grows_st_map : forall fs s g, ext g -> grows fs (st_map fs s g).
Proof.
  intros fs s g E w. split.
  - intros D. apply durable_iff in D. destruct D as [[s' f] [H1 H2]]. apply durable_iff.
    exists (s', if N.eqb s' s then g f else f). split; [apply In_st_map; exact H1|].
    cbn in *. destruct (N.eqb s' s); [apply E; exact H2|exact H2].
  - intros s' [f [H1 H2]].
    exists (if N.eqb s' s then g f else f). split; [apply In_st_map; exact H1|].
    destruct (N.eqb s' s); [apply E; exact H2|exact H2].
Qed.

Lemma sync_makes_durable : forall fs s w, live_at fs s w -> durable (st_map fs s f_sync) w.
Proof.
  intros fs s w [f [H1 H2]]. apply durable_iff.
  exists (s, f_sync f). split; [apply In_st_map_at; exact H1|].
  cbn. rewrite firstn_all. exact H2.
Qed.

Lemma In_st_remove : forall fs s p, In p (st_remove fs s) <-> In p fs /\ fst p <> s.
Proof.
  intros fs s p. unfold st_remove. rewrite filter_In, negb_true_iff, N.eqb_neq. reflexivity.
Qed.

Lemma st_create_names : forall fs s s', In s' (map fst (st_create fs s)) -> In s' (map fst fs) \/ s' = s.
Proof.
  intros fs s s' H. unfold st_create in H. rewrite map_app, in_app_iff in H.
  destruct H as [H|[H|[]]]; [left|right; symmetry; exact H].
  apply in_map_iff in H. destruct H as [p [E H]]. apply In_st_remove in H.
  rewrite <- E. apply in_map. apply H.
Qed.

Lemma grows_st_create : forall fs s,
  (forall s', In s' (map fst fs) -> s' <> s) -> grows fs (st_create fs s).
Proof.
  intros fs s F.
  assert (K : forall p, In p fs -> In p (st_create fs s)).
  { intros p H. apply in_or_app; left. apply In_st_remove. split; [exact H|].
    apply F. apply in_map; exact H. }
  intros w. split.
  - intros D. apply durable_iff in D. destruct D as [p [H1 H2]]. apply durable_iff. exists p. auto.
  - intros s' [f [H1 H2]]. exists f. auto.
Qed.

Lemma grows_push_effect : forall fs s x o, grows fs (push_effect fs s x o).
Proof.
  intros fs s x o. destruct o as [|[| |]]; cbn; auto using grows_refl, grows_st_map, ext_push.
Qed.

Lemma push_effect_names : forall fs s x o, map fst (push_effect fs s x o) = map fst fs.
Proof.
  intros fs s x o. destruct o as [|[| |]]; cbn; auto using st_map_names.
Qed.

(* From here on [cbn] computes the fields of a state but stops at the store operations and
   predicates the lemmas below are stated on. *)
Arguments push_effect : simpl never.
Arguments durable : simpl never.
Arguments live_at : simpl never.
Arguments recover_all : simpl never.
Arguments crash : simpl never.
Arguments st_create : simpl never.
Arguments st_map : simpl never.

(* [safe]: durable, or legitimately removed by a TruncateUpTo (an entry of a deleted file) *)
Definition safe (fs : store) (rel : list N) (w : N) : Prop := In w rel \/ durable fs w.
Definition all_safe (fs : store) (rel l : list N) : Prop := forall w, In w l -> safe fs rel w.

Definition bound (fs : store) (seq : N) : Prop := forall s, In s (map fst fs) -> s <= seq.

(* A header followed by whole entries only (so an entry appended to it is readable): the
   file of a current writer that has not seen an append error. *)
Definition clean_file (f : file) : Prop := exists ws, f_items f = IHdr :: map IEnt ws.
Definition clean (fs : store) (cur : option N) (force : bool) : Prop :=
  forall s, cur = Some s -> force = false -> exists f, In (s, f) fs /\ clean_file f.

(* Every entry acked Ok lies below the synced count of a readable file (or was in a file
   that a truncation deleted); every entry with a pending ack is either already there or
   readable in the current writer's file (so the next successful fsync of the current
   writer puts it there); sequence numbers of existing files never exceed
   current_sequence (so create never replaces a file).
   The invariant is stated over the seven fields it reads ([cur] is the sequence number
   of the current writer): a step that only logs, consumes an outcome or raises a flag
   preserves it by computation. *)
Definition InvC (fs : store) (cur : option N) (seq : N) (force : bool) (pend ok rel : list N) : Prop :=
  all_safe fs rel ok /\
  (forall w, In w pend -> safe fs rel w \/ exists s, cur = Some s /\ live_at fs s w) /\
  bound fs seq /\ clean fs cur force.

Definition cur_seq (st : state) : option N := option_map w_seq (s_cur st).
Definition Inv (st : state) : Prop :=
  InvC (s_store st) (cur_seq st) (s_seq st) (s_force st) (s_pending st) (s_ok st) (s_released st).

Lemma safe_grows : forall fs fs' rel w, grows fs fs' -> safe fs rel w -> safe fs' rel w.
Proof. intros fs fs' rel w G [R|D]; [left; exact R|right; apply G; exact D]. Qed.

Lemma InvC_grows : forall fs fs' cur seq force pend ok rel,
  grows fs fs' -> bound fs' seq -> clean fs' cur force -> all_safe fs rel ok ->
  (forall w, In w pend -> safe fs rel w \/ exists s, cur = Some s /\ live_at fs s w) ->
  InvC fs' cur seq force pend ok rel.
Proof.
  intros fs fs' cur seq force pend ok rel G B C I1 I2.
  split; [|split; [|split; [exact B|exact C]]].
  - intros w H. apply (safe_grows fs); auto.
  - intros w H. destruct (I2 w H) as [Hsafe|[s [E L]]]; [left; apply (safe_grows fs); auto|].
    right. exists s. split; [exact E|apply G; exact L].
Qed.

Lemma InvC_no_writer : forall fs seq force pend ok rel,
  InvC fs None seq force pend ok rel -> all_safe fs rel pend.
Proof.
  intros fs seq force pend ok rel [_ [I2 _]] w H.
  destruct (I2 w H) as [Hsafe|[s [E _]]]; [exact Hsafe|discriminate E].
Qed.

Lemma InvC_sync : forall fs s seq force pend ok rel,
  InvC fs (Some s) seq force pend ok rel ->
  InvC (st_map fs s f_sync) (Some s) seq force pend ok rel /\ all_safe (st_map fs s f_sync) rel pend.
Proof.
  intros fs s seq force pend ok rel Hinv.
  pose proof (grows_st_map fs s f_sync ext_sync) as G.
  split.
  - apply (InvC_grows fs); [exact G| | |apply Hinv ..].
    + intros s'. rewrite st_map_names. apply Hinv.
    + intros s' E F. destruct Hinv as [_ [_ [_ C]]]. destruct (C s' E F) as [f [H1 H2]].
      injection E as <-. exists (f_sync f). split; [apply In_st_map_at; exact H1|exact H2].
  - intros w H. destruct Hinv as [_ [I2 _]].
    destruct (I2 w H) as [Hsafe|[s' [E L]]]; [apply (safe_grows fs); auto|].
    injection E as <-. right. apply sync_makes_durable; exact L.
Qed.

Lemma InvC_append : forall fs s seq pend ok rel w,
  InvC fs (Some s) seq false pend ok rel ->
  InvC (st_map fs s (f_push (IEnt w))) (Some s) seq false pend ok rel /\
  live_at (st_map fs s (f_push (IEnt w))) s w.
Proof.
  intros fs s seq pend ok rel w Hinv.
  destruct Hinv as [I1 [I2 [I3 I4]]]. destruct (I4 s eq_refl eq_refl) as [f [H1 [ws H2]]].
  pose proof (In_st_map_at fs s (f_push (IEnt w)) f H1) as M.
  split.
  - apply (InvC_grows fs); [apply grows_st_map, ext_push| | |exact I1|exact I2].
    + intros s'. rewrite st_map_names. apply I3.
    + intros s' E _. injection E as <-. exists (f_push (IEnt w) f). split; [exact M|].
      exists (ws ++ [w]). cbn. rewrite H2, map_app. reflexivity.
  - exists (f_push (IEnt w) f). split; [exact M|].
    cbn. rewrite H2. cbn. clear. induction ws; cbn; auto.
Qed.

Lemma InvC_resolve : forall fs cur seq force pend ok rel (b : bool),
  InvC fs cur seq force pend ok rel -> (b = true -> all_safe fs rel pend) ->
  InvC fs cur seq force [] (if b then rev pend ++ ok else ok) rel.
Proof.
  intros fs cur seq force pend ok rel b [I1 [_ I34]] P. split; [|split; [intros w []|exact I34]].
  destruct b; [|exact I1].
  intros w H. apply in_app_or in H. destruct H as [H|H]; [|exact (I1 w H)].
  apply (P eq_refl). apply in_rev; exact H.
Qed.

Lemma In_files_at : forall fs s f, In f (files_at fs s) <-> In (s, f) fs.
Proof.
  intros fs s f. unfold files_at. rewrite in_map_iff. split.
  - intros [[a b] [E H]]. cbn in E; subst b. apply filter_In in H. destruct H as [H1 H2].
    cbn in H2. apply N.eqb_eq in H2. subst a. exact H1.
  - intros H. exists (s, f). split; [reflexivity|]. apply filter_In. split; [exact H|].
    cbn. apply N.eqb_refl.
Qed.

Lemma In_entries_at : forall fs s w, In w (entries_at fs s) <-> live_at fs s w.
Proof.
  intros fs s w. unfold entries_at. rewrite in_flat_map.
  split; intros [f [H1 H2]]; exists f; (split; [apply In_files_at; exact H1|exact H2]).
Qed.

Lemma InvC_delete : forall fs cur seq force pend ok rel s,
  cur <> Some s -> InvC fs cur seq force pend ok rel ->
  InvC (st_remove fs s) cur seq force pend ok (entries_at fs s ++ rel).
Proof.
  intros fs cur seq force pend ok rel s Hc [I1 [I2 [I3 I4]]].
  assert (K : forall a f, In (a, f) fs -> a <> s -> In (a, f) (st_remove fs s)).
  { intros a f H Ne. apply In_st_remove. split; [exact H|exact Ne]. }
  assert (Kc : forall c f, cur = Some c -> In (c, f) fs -> In (c, f) (st_remove fs s)).
  { intros c f E H. apply K; [exact H|]. intros ->. exact (Hc E). }
  assert (Hsafe : forall w, safe fs rel w -> safe (st_remove fs s) (entries_at fs s ++ rel) w).
  { intros w [R|D]; [left; apply in_or_app; right; exact R|].
    apply durable_iff in D. destruct D as [[a f] [H1 H2]]. cbn in H2.
    destruct (N.eq_dec a s) as [->|Ne].
    - left. apply in_or_app; left. apply In_entries_at. exists f. split; [exact H1|].
      apply read_file_firstn in H2; exact H2.
    - right. apply durable_iff. exists (a, f). split; [apply K; assumption|exact H2]. }
  split; [|split; [|split]].
  - intros w H. apply Hsafe, I1, H.
  - intros w H. destruct (I2 w H) as [D|[c [E [f [L1 L2]]]]]; [left; apply Hsafe, D|].
    right. exists c. split; [exact E|]. exists f. split; [apply (Kc c f E L1)|exact L2].
  - intros a H. apply in_map_iff in H. destruct H as [p [<- H]]. apply In_st_remove in H.
    apply I3. apply in_map. apply H.
  - intros c E F. destruct (I4 c E F) as [f [H1 H2]]. exists f. split; [apply (Kc c f E H1)|exact H2].
Qed.

Definition Rotated (p : state * res) : Prop :=
  Inv (fst p) /\ (snd p = ROk -> exists wr, s_cur (fst p) = Some wr /\ s_force (fst p) = false).

(* rotate_open: entered with every pending entry already safe.  Whatever the outcomes, it
   leaves the old store, the store with the new empty file, or that with something appended
   to the new file, and a writer only if both calls succeeded. *)
Lemma rotate_open_inv : forall st,
  all_safe (s_store st) (s_released st) (s_ok st) ->
  all_safe (s_store st) (s_released st) (s_pending st) ->
  bound (s_store st) (s_seq st) -> Rotated (rotate_open st).
Proof.
  intros st A P B. unfold Rotated, rotate_open, do_io. cbn.
  set (s := s_seq st + 1).
  assert (grows_created : grows (s_store st) (st_create (s_store st) s)).
  { apply grows_st_create. intros s' H. apply B in H. lia. }
  assert (bound_old : bound (s_store st) s) by (intros s' H; apply B in H; lia).
  assert (bound_created : bound (st_create (s_store st) s) s).
  { intros s' H. apply st_create_names in H. destruct H as [H| ->]; [exact (bound_old s' H)|lia]. }
  assert (bound_pushed : forall o, bound (push_effect (st_create (s_store st) s) s IHdr o) s).
  { intros o s'. rewrite push_effect_names. apply bound_created. }
  assert (inv_if : forall fs' cur, grows (s_store st) fs' -> bound fs' s -> clean fs' cur false ->
              InvC fs' cur s false (s_pending st) (s_ok st) (s_released st)).
  { intros fs' cur G' B' C'. apply (InvC_grows (s_store st)); try assumption.
    intros w H. left. exact (P w H). }
  assert (inv_no_writer : forall fs', grows (s_store st) fs' -> bound fs' s ->
               InvC fs' None s false (s_pending st) (s_ok st) (s_released st)).
  { intros fs' G' B'. apply inv_if; [exact G'|exact B'|]. intros s' E. discriminate E. }
  assert (inv_old : InvC (s_store st) None s false (s_pending st) (s_ok st) (s_released st))
    by (apply inv_no_writer; [apply grows_refl|exact bound_old]).
  assert (inv_created : InvC (st_create (s_store st) s) None s false (s_pending st) (s_ok st) (s_released st))
    by (apply inv_no_writer; [exact grows_created|exact bound_created]).
  destruct (s_io st) as [|[|[| |]] io]; cbn.
  - (* crash before create *)
    split; [exact inv_old|discriminate].
  - destruct io as [|[|e] io]; cbn.
    + (* create Ok, crash before the header *)
      split; [exact inv_created|discriminate].
    + (* create Ok, header Ok: the writer's file is the header alone *)
      split; [|intros _; eexists; split; reflexivity].
      apply inv_if; [exact (grows_trans _ _ _ grows_created (grows_push_effect _ s IHdr OOk))|apply bound_pushed|].
      intros s' E _. injection E as <-. exists (f_push IHdr (File [] 0%nat)).
      split; [|exists []; reflexivity]. apply In_st_map_at.
      apply in_or_app; right; left; reflexivity.
    + (* create Ok, header error *)
      split; [|discriminate].
      apply inv_no_writer; [exact (grows_trans _ _ _ grows_created (grows_push_effect _ s IHdr (OErr e)))|apply bound_pushed].
  - (* create failed, no file *)
    split; [exact inv_old|discriminate].
  - (* create reported an error, the empty file exists (both remaining effects) *)
    split; [exact inv_created|discriminate].
  - split; [exact inv_created|discriminate].
Qed.

Lemma rotate_inv : forall st, Inv st -> Rotated (rotate Repaired st).
Proof.
  intros st Hinv. unfold rotate. pose proof Hinv as J. unfold Inv, cur_seq in J.
  destruct (s_cur st) as [wr|]; cbn in J.
  - unfold do_io. destruct (s_io st) as [|[|e] io].
    + (* crash before the fsync *) split; [exact Hinv|discriminate].
    + (* fsync Ok *)
      apply InvC_sync in J. destruct J as [J P]. apply rotate_open_inv; [apply J|exact P|apply J].
    + (* fsync failed: the writer is kept *) split; [exact Hinv|discriminate].
  - apply rotate_open_inv; [apply J|eapply InvC_no_writer; exact J|apply J].
Qed.

Definition Appended (w : N) (p : state * res) : Prop :=
  Inv (fst p) /\
  (snd p = ROk -> exists s, cur_seq (fst p) = Some s /\ live_at (s_store (fst p)) s w).

Lemma rot_append_inv : forall cfg st w size,
  c_variant cfg = Repaired -> Inv st -> Appended w (rot_append cfg st w size).
Proof.
  intros cfg st w size V Hinv. unfold Appended, rot_append. rewrite V.
  set (needs := match s_cur st with
                | None => true
                | Some wr => s_force st || (c_max_file_size cfg <=? w_size wr)
                end).
  assert (R : Rotated (if needs then rotate Repaired st else (st, ROk))).
  { destruct needs eqn:Hneeds; [apply rotate_inv; exact Hinv|].
    split; [exact Hinv|]. intros _. unfold needs in Hneeds.
    destruct (s_cur st) as [wr|] eqn:C; [|discriminate Hneeds].
    exists wr. apply orb_false_iff in Hneeds. split; [exact C|apply Hneeds]. }
  destruct (if needs then rotate Repaired st else (st, ROk)) as [st1 r1].
  destruct R as [Hinv1 R]. cbn in Hinv1, R.
  destruct r1; cbn; [|split; [exact Hinv1|discriminate] ..].
  destruct (R eq_refl) as [wr [C Fo]]. rewrite C.
  pose proof Hinv1 as J. unfold Inv, cur_seq in J. rewrite C, Fo in J. cbn in J.
  unfold do_io. destruct (s_io st1) as [|[|e] io]; cbn.
  - (* crash before the append *) split; [exact Hinv1|discriminate].
  - (* append Ok *)
    apply InvC_append with (w := w) in J. destruct J as [J L].
    split; [|intros _; exists (w_seq wr); split; [reflexivity|exact L]].
    unfold Inv, cur_seq. cbn. rewrite Fo. exact J.
  - (* append error: whatever reached the file, force_rotate is set and the writer kept *)
    split; [|discriminate].
    apply (InvC_grows (s_store st1)); [apply grows_push_effect| | |apply Hinv1 ..].
    + intros s'. cbn. rewrite push_effect_names. apply Hinv1.
    + intros s' _ F. discriminate F.
Qed.

Lemma handle_write_inv : forall cfg st w size acked,
  c_variant cfg = Repaired -> Inv st -> Inv (handle_write cfg st w size acked).
Proof.
  intros cfg st w size acked V Hinv. unfold handle_write.
  assert (Hinv0 : Inv (if c_max_entries cfg <=? s_since st then set_over st else st))
    by (destruct (c_max_entries cfg <=? s_since st); exact Hinv).
  destruct (rot_append_inv cfg _ w size V Hinv0) as [Hinv1 L].
  destruct (rot_append cfg _ w size) as [st1 r]. cbn in Hinv1, L.
  destruct r; [|destruct acked; exact Hinv1|exact Hinv1|exact Hinv1].
  destruct acked; [|exact Hinv1].
  destruct Hinv1 as [J1 [J2 J34]]. split; [exact J1|split; [|exact J34]].
  intros x Hx. apply in_app_or in Hx. destruct Hx as [Hx|[<-|[]]]; [exact (J2 x Hx)|].
  right. exact (L eq_refl).
Qed.

Lemma fold_ack_eq : forall ok l st,
  fold_left (fun a w => ack a w ok) l st =
  State (s_store st) (s_cur st) (s_seq st) (s_force st) (s_pending st) (s_since st)
        (if ok then rev l ++ s_ok st else s_ok st) (if ok then s_err st else rev l ++ s_err st)
        (map (fun w => LAck w ok) (rev l) ++ s_log st)
        (s_io st) (s_halt st) (s_over st) (s_panic st) (s_released st).
Proof.
  intros ok l; induction l as [|a l IH]; intros st; cbn.
  - destruct st, ok; reflexivity.
  - rewrite IH. cbn. rewrite map_app, <- !app_assoc. destruct ok; reflexivity.
Qed.

Lemma resolve_all_inv : forall st ok,
  Inv st -> (ok = true -> all_safe (s_store st) (s_released st) (s_pending st)) ->
  Inv (resolve_all st ok).
Proof.
  intros st ok Hinv P. unfold resolve_all. rewrite fold_ack_eq. apply InvC_resolve; assumption.
Qed.

Lemma flush_inv : forall st, Inv st -> Inv (flush st).
Proof.
  intros st Hinv. unfold flush.
  destruct (s_since st =? 0); [exact Hinv|].
  pose proof Hinv as J. unfold Inv, cur_seq in J.
  destruct (s_cur st) as [wr|] eqn:C; cbn in J.
  - unfold do_io. destruct (s_io st) as [|[|e] io].
    + (* crash before the fsync *) exact Hinv.
    + (* fsync Ok: pending acks resolved Ok *)
      apply InvC_sync in J. destruct J as [J P].
      apply resolve_all_inv; [|intros _; exact P].
      unfold Inv, cur_seq. cbn. rewrite C. exact J.
    + (* fsync failed: pending acks resolved Err *)
      apply resolve_all_inv; [exact Hinv|discriminate].
  - apply resolve_all_inv; [exact Hinv|]. intros _. eapply InvC_no_writer; exact J.
Qed.

Lemma shutdown_inv : forall st, Inv st -> Inv (shutdown st).
Proof.
  intros st Hinv. unfold shutdown. pose proof (flush_inv st Hinv) as F.
  destruct (s_halt (flush st)); exact F.
Qed.

Lemma truncate_files_inv : forall names st t cur,
  cur = cur_seq st -> Inv st -> Inv (truncate_files st t cur names).
Proof.
  induction names as [|s names IH]; intros st t cur Hc Hinv; cbn; [exact Hinv|].
  destruct (match cur with Some c => c =? s | None => false end) eqn:Sk; [apply IH; auto|].
  assert (Ne : cur_seq st <> Some s).
  { rewrite <- Hc. intros ->. rewrite N.eqb_refl in Sk. discriminate Sk. }
  destruct (deletable_at t (s_store st) s); [|apply IH; auto].
  assert (D : Inv (delete_file st s)) by (apply InvC_delete; assumption).
  unfold do_io. destruct (s_io st) as [|[|[| |]] io].
  - (* crash before the delete *) exact Hinv.
  - (* delete Ok: the loop goes on *) apply IH; [exact Hc|exact D].
  - (* delete failed, file still there: the loop ends *) exact Hinv.
  - (* delete reported an error, file gone: the loop ends *) exact D.
  - exact D.
Qed.

Lemma truncate_inv : forall st t, Inv st -> Inv (truncate st t).
Proof.
  intros st t Hinv. unfold truncate. apply truncate_files_inv; [reflexivity|exact Hinv].
Qed.

Lemma step_inv : forall cfg st ev, c_variant cfg = Repaired -> Inv st -> Inv (step cfg st ev).
Proof.
  intros cfg st ev V Hinv. unfold step. destruct (s_halt st); [exact Hinv|].
  destruct ev as [w size|w size| |t|].
  - apply handle_write_inv; assumption.
  - apply handle_write_inv; assumption.
  - apply flush_inv; exact Hinv.
  - apply truncate_inv; exact Hinv.
  - apply shutdown_inv; exact Hinv.
Qed.

Lemma fold_step_ind : forall cfg (P : state -> Prop) sched,
  (forall ev st, In ev sched -> P st -> P (step cfg st ev)) ->
  forall st, P st -> P (fold_left (step cfg) sched st).
Proof.
  intros cfg P sched; induction sched as [|ev sched IH]; intros H st p; cbn; [exact p|].
  apply IH; [intros ev' st' M; apply H; right; exact M|apply H; [left; reflexivity|exact p]].
Qed.

Lemma run_hist_ind : forall cfg (P : state -> Prop) hist,
  (forall keep sched io st, In (keep, sched, io) hist -> P st ->
     P (fold_left (step cfg) sched (restart keep st io))) ->
  forall st, P st -> P (run_hist cfg st hist).
Proof.
  intros cfg P hist; induction hist as [|[[keep sched] io] hist IH]; intros H st p; cbn; [exact p|].
  apply IH; [intros k sc i st' M; apply H; right; exact M|apply H; [left; reflexivity|exact p]].
Qed.

Lemma max_seq_bound : forall fs, bound fs (max_seq fs).
Proof.
  induction fs as [|a fs IH]; intros s H; [destruct H|].
  change (max_seq (a :: fs)) with (N.max (fst a) (max_seq fs)).
  destruct H as [<-|H]; [lia|]. specialize (IH s H). lia.
Qed.

Lemma init_from_inv : forall fs acked0 err0 rel0 io,
  all_safe fs rel0 acked0 -> Inv (init_from fs acked0 err0 rel0 io).
Proof.
  intros fs acked0 err0 rel0 io H.
  split; [exact H|split; [intros w []|split; [apply max_seq_bound|]]].
  intros s E. discriminate E.
Qed.

Lemma init_inv : forall io, Inv (init io).
Proof. intros io. apply init_from_inv. intros w []. Qed.

Lemma crash_keep_In : forall keep fs w,
  durable fs w -> exists q, In q (crash_keep keep fs) /\
    In w (read_file (f_items (snd q))) /\ f_synced (snd q) = length (f_items (snd q)).
Proof.
  intros keep fs w D. apply durable_iff in D. destruct D as [p [H1 H2]].
  exists (fst p, crash_file_keep (keep (fst p)) (snd p)). split.
  - unfold crash_keep. apply in_map_iff. exists p; auto.
  - cbn. split; [|reflexivity].
    apply (read_file_firstn (f_synced (snd p))). rewrite firstn_firstn, Nat.min_l by lia. exact H2.
Qed.

Lemma recover_crash_keep : forall keep fs w, durable fs w -> In w (recover_all (crash_keep keep fs)).
Proof.
  intros keep fs w D. destruct (crash_keep_In keep fs w D) as [q [H1 [H2 _]]].
  apply recover_all_In. exists q; auto.
Qed.

Lemma durable_crash_keep : forall keep fs w, durable fs w -> durable (crash_keep keep fs) w.
Proof.
  intros keep fs w D. destruct (crash_keep_In keep fs w D) as [q [H1 [H2 H3]]].
  apply durable_iff. exists q. split; [exact H1|]. rewrite H3, firstn_all. exact H2.
Qed.

Lemma restart_inv : forall keep st io, Inv st -> Inv (restart keep st io).
Proof.
  intros keep st io [I1 _]. apply init_from_inv.
  intros w H. destruct (I1 w H) as [R|D]; [left; exact R|right; apply durable_crash_keep; exact D].
Qed.

Lemma run_hist_inv : forall cfg hist st,
  c_variant cfg = Repaired -> Inv st -> Inv (run_hist cfg st hist).
Proof.
  intros cfg hist st V. apply run_hist_ind. intros keep sched io st' _ Hinv.
  apply fold_step_ind; [intros ev st'' _; apply step_inv; exact V|apply restart_inv; exact Hinv].
Qed.

Definition untouched (st st' : state) : Prop :=
  s_pending st' = s_pending st /\ s_since st' = s_since st /\
  s_released st' = s_released st /\ s_panic st' = s_panic st.
Definition Framed (st : state) (p : state * res) : Prop :=
  untouched st (fst p) /\ (snd p = ROk -> s_cur (fst p) <> None) /\ snd p <> RPanic.

Lemma rotate_open_frame : forall st, Framed st (rotate_open st).
Proof.
  intros st. unfold rotate_open, do_io. cbn.
  destruct (s_io st) as [|[|[| |]] io]; cbn; [|destruct io as [|[|e] io]; cbn|..];
    repeat split; discriminate.
Qed.

Lemma rotate_frame : forall v st, Framed st (rotate v st).
Proof.
  intros v st. unfold rotate.
  destruct v; [apply rotate_open_frame|].
  destruct (s_cur st) as [wr|]; [|apply rotate_open_frame].
  unfold do_io. destruct (s_io st) as [|[|e] io]; [|exact (rotate_open_frame _)|];
    repeat split; discriminate.
Qed.

Lemma rot_append_frame : forall cfg st w size, Framed st (rot_append cfg st w size).
Proof.
  intros cfg st w size. unfold rot_append.
  set (needs := match s_cur st with
                | None => true
                | Some wr => s_force st || (c_max_file_size cfg <=? w_size wr)
                end).
  assert (R : Framed st (if needs then rotate (c_variant cfg) st else (st, ROk))).
  { destruct needs eqn:Hneeds; [apply rotate_frame|]. repeat split; try discriminate.
    intros _ C. unfold needs in Hneeds. cbn in C. rewrite C in Hneeds. discriminate Hneeds. }
  destruct (if needs then rotate (c_variant cfg) st else (st, ROk)) as [st1 r1].
  destruct R as [U [K NP]]. cbn in U, K, NP.
  destruct r1; cbn; [|split; [exact U|split; [discriminate|exact NP]] ..].
  destruct (s_cur st1) as [wr|]; [|destruct (K eq_refl eq_refl)].
  unfold do_io. destruct (s_io st1) as [|[|e] io]; [| |destruct (c_variant cfg)];
    (split; [exact U|split; discriminate]).
Qed.

Lemma handle_write_released_eq : forall cfg st w size acked, s_released (handle_write cfg st w size acked) = s_released st.
Proof.
  intros cfg st w size acked. unfold handle_write.
  destruct (rot_append_frame cfg (if c_max_entries cfg <=? s_since st then set_over st else st) w size)
    as [[_ [_ [Er _]]] _].
  destruct (rot_append cfg _ w size) as [st1 r]. cbn in Er.
  transitivity (s_released st1); [destruct r, acked; reflexivity|].
  rewrite Er. destruct (c_max_entries cfg <=? s_since st); reflexivity.
Qed.

Lemma resolve_all_released_eq : forall st ok, s_released (resolve_all st ok) = s_released st.
Proof. intros st ok. unfold resolve_all. rewrite fold_ack_eq. reflexivity. Qed.

Lemma flush_released_eq : forall st, s_released (flush st) = s_released st.
Proof.
  intros st. unfold flush. destruct (s_since st =? 0); [reflexivity|].
  destruct (s_cur st) as [wr|]; [|apply resolve_all_released_eq].
  unfold do_io. destruct (s_io st) as [|[|e] io]; [reflexivity|rewrite resolve_all_released_eq; reflexivity ..].
Qed.

Lemma shutdown_released_eq : forall st, s_released (shutdown st) = s_released st.
Proof.
  intros st. unfold shutdown. destruct (s_halt (flush st)); apply flush_released_eq.
Qed.

Lemma deletable_le : forall t fs s w, deletable_at t fs s = true -> In w (entries_at fs s) -> stamp w <= t.
Proof.
  intros t fs s w D H. apply In_entries_at in H. destruct H as [f [H1 H2]].
  apply In_files_at in H1. unfold deletable_at in D.
  destruct (files_at fs s) as [|f0 l] eqn:E; [destruct H1|].
  rewrite forallb_forall in D. specialize (D f H1).
  unfold deletable, file_entries in D. unfold read_file in H2.
  destruct (f_items f) as [|[| |] r]; try discriminate D.
  rewrite forallb_forall in D. apply N.leb_le. apply D; exact H2.
Qed.

Lemma truncate_files_released_le : forall names st t cur w,
  In w (s_released (truncate_files st t cur names)) -> In w (s_released st) \/ stamp w <= t.
Proof.
  induction names as [|s names IH]; intros st t cur w H; cbn in H; [left; exact H|].
  destruct (match cur with Some c => c =? s | None => false end); [apply IH in H; exact H|].
  destruct (deletable_at t (s_store st) s) eqn:D; [|apply IH in H; exact H].
  assert (X : forall v, In v (entries_at (s_store st) s ++ s_released st) -> In v (s_released st) \/ stamp v <= t).
  { intros v Hv. apply in_app_or in Hv. destruct Hv as [Hv|Hv]; [right|left; exact Hv].
    exact (deletable_le t (s_store st) s v D Hv). }
  unfold do_io in H. destruct (s_io st) as [|[|[| |]] io].
  - (* crash before the delete *) left; exact H.
  - (* delete Ok: the loop goes on *)
    apply IH in H. destruct H as [H|H]; [exact (X w H)|right; exact H].
  - (* delete failed, file still there *) left; exact H.
  - (* delete reported an error, file gone *) exact (X w H).
  - exact (X w H).
Qed.

Lemma step_released_le : forall cfg st ev w, In w (s_released (step cfg st ev)) ->
  In w (s_released st) \/ exists t, ev = STruncate t /\ stamp w <= t.
Proof.
  intros cfg st ev w H. unfold step in H. destruct (s_halt st); [left; exact H|].
  destruct ev as [x size|x size| |t|].
  - rewrite handle_write_released_eq in H. left; exact H.
  - rewrite handle_write_released_eq in H. left; exact H.
  - rewrite flush_released_eq in H. left; exact H.
  - unfold truncate in H. apply truncate_files_released_le in H. destruct H as [H|H]; [left; exact H|].
    right. exists t. auto.
  - rewrite shutdown_released_eq in H. left; exact H.
Qed.

Lemma fold_step_released_le : forall cfg sched st w, In w (s_released (fold_left (step cfg) sched st)) ->
  In w (s_released st) \/ exists t, In (STruncate t) sched /\ stamp w <= t.
Proof.
  intros cfg sched st.
  apply (fold_step_ind cfg (fun st' => forall w, In w (s_released st') ->
           In w (s_released st) \/ exists t, In (STruncate t) sched /\ stamp w <= t)); [|auto].
  intros ev st' M P w H. apply step_released_le in H.
  destruct H as [H|[t [-> H]]]; [exact (P w H)|right; exists t; auto].
Qed.

Lemma run_hist_released_le : forall cfg hist st w, In w (s_released (run_hist cfg st hist)) ->
  In w (s_released st) \/
  exists keep sched io t, In (keep, sched, io) hist /\ In (STruncate t) sched /\ stamp w <= t.
Proof.
  intros cfg hist st.
  apply (run_hist_ind cfg (fun st' => forall w, In w (s_released st') -> In w (s_released st) \/
           exists keep sched io t, In (keep, sched, io) hist /\ In (STruncate t) sched /\ stamp w <= t)); [|auto].
  intros keep sched io st' M P w H. apply fold_step_released_le in H.
  destruct H as [H|[t [H1 H2]]]; [exact (P w H)|right; exists keep, sched, io, t; auto].
Qed.

Theorem released_below_watermark : forall cfg sched io w,
  In w (s_released (run cfg sched io)) -> exists t, In (STruncate t) sched /\ stamp w <= t.
Proof.
  intros cfg sched io w H. apply fold_step_released_le in H. destruct H as [[]|H]. exact H.
Qed.

Theorem acked_survive_restarts : forall cfg hist keep,
  c_variant cfg = Repaired ->
  forall w, In w (acked_ok (run_incarnations cfg hist)) ->
  ~ In w (s_released (run_incarnations cfg hist)) ->
  In w (recover_all (crash (s_store (run_incarnations cfg hist)))) /\
  In w (recover_all (crash_keep keep (s_store (run_incarnations cfg hist)))).
Proof.
  intros cfg hist keep V w H NR.
  destruct (run_hist_inv cfg hist (init []) V (init_inv [])) as [I1 _].
  destruct (I1 w H) as [R|D]; [contradiction|].
  split; [exact D|apply recover_crash_keep; exact D].
Qed.

Theorem acked_survive_restarts_watermark : forall cfg hist keep,
  c_variant cfg = Repaired ->
  forall w, In w (acked_ok (run_incarnations cfg hist)) ->
  (forall k sched io t, In (k, sched, io) hist -> In (STruncate t) sched -> t < stamp w) ->
  In w (recover_all (crash (s_store (run_incarnations cfg hist)))) /\
  In w (recover_all (crash_keep keep (s_store (run_incarnations cfg hist)))).
Proof.
  intros cfg hist keep V w H G. apply acked_survive_restarts; auto.
  intros R. apply run_hist_released_le in R. destruct R as [[]|[k [sc [i [t [H1 [H2 H3]]]]]]].
  specialize (G k sc i t H1 H2). lia.
Qed.

Definition k_none : N -> nat := fun _ => 0%nat.

Theorem acked_survive_unless_released : forall cfg sched io,
  c_variant cfg = Repaired ->
  forall w, In w (acked_ok (run cfg sched io)) -> ~ In w (s_released (run cfg sched io)) ->
  In w (recovered_after_crash (run cfg sched io)).
Proof.
  intros cfg sched io V w H NR.
  (* A run is the history of one incarnation: restarted on the empty store the actor is in
     its initial state, and [run cfg sched io] is convertible with
     [run_incarnations cfg [(keep, sched, io)]]. *)
  exact (proj1 (acked_survive_restarts cfg [(k_none, sched, io)] k_none V w H NR)).
Qed.

Theorem acked_survive_keep : forall cfg sched io keep,
  c_variant cfg = Repaired ->
  forall w, In w (acked_ok (run cfg sched io)) -> ~ In w (s_released (run cfg sched io)) ->
  In w (recover_all (crash_keep keep (s_store (run cfg sched io)))).
Proof.
  intros cfg sched io keep V w H NR.
  exact (proj2 (acked_survive_restarts cfg [(keep, sched, io)] keep V w H NR)).
Qed.

Theorem acked_survive_repaired : forall cfg sched io,
  c_variant cfg = Repaired ->
  forall w, In w (acked_ok (run cfg sched io)) ->
  (forall t, In (STruncate t) sched -> t < stamp w) ->
  In w (recovered_after_crash (run cfg sched io)).
Proof.
  intros cfg sched io V w H G. apply acked_survive_unless_released; auto.
  intros R. apply released_below_watermark in R. destruct R as [t [R1 R2]].
  specialize (G t R1). lia.
Qed.

Lemma seq_bound_hist : forall cfg hist p,
  c_variant cfg = Repaired -> In p (s_store (run_incarnations cfg hist)) ->
  fst p <= s_seq (run_incarnations cfg hist).
Proof.
  intros cfg hist p V H.
  destruct (run_hist_inv cfg hist (init []) V (init_inv [])) as [_ [_ [I3 _]]].
  apply I3. apply in_map. exact H.
Qed.

Lemma seq_bound_run : forall cfg sched io p,
  c_variant cfg = Repaired -> In p (s_store (run cfg sched io)) -> fst p <= s_seq (run cfg sched io).
Proof. intros cfg sched io. exact (seq_bound_hist cfg [(k_none, sched, io)]). Qed.

Definition Quiet (st : state) : Prop :=
  s_panic st = false /\ N.of_nat (length (s_pending st)) <= s_since st.

Lemma handle_write_quiet : forall cfg st w size acked, Quiet st -> Quiet (handle_write cfg st w size acked).
Proof.
  intros cfg st w size acked Q. unfold handle_write.
  assert (Q0 : Quiet (if c_max_entries cfg <=? s_since st then set_over st else st))
    by (destruct (c_max_entries cfg <=? s_since st); exact Q).
  destruct (rot_append_frame cfg (if c_max_entries cfg <=? s_since st then set_over st else st) w size)
    as [[Ep [Es [_ Epa]]] [_ NP]].
  destruct (rot_append cfg _ w size) as [st1 r]. cbn in Ep, Es, Epa, NP.
  destruct Q0 as [P0 L0]. rewrite <- Epa in P0. rewrite <- Ep, <- Es in L0.
  destruct r; [|destruct acked; split; assumption|split; assumption|destruct (NP eq_refl)].
  split; cbn; [exact P0|]. destruct acked; [rewrite app_length; cbn|]; lia.
Qed.

Lemma resolve_all_quiet : forall st ok, s_panic st = false -> Quiet (resolve_all st ok).
Proof.
  intros st ok P. unfold resolve_all. rewrite fold_ack_eq. split; [exact P|apply N.le_refl].
Qed.

Lemma flush_quiet : forall st, Quiet st -> Quiet (flush st).
Proof.
  intros st Q. unfold flush. destruct (s_since st =? 0); [exact Q|].
  destruct (s_cur st) as [wr|]; [|apply resolve_all_quiet; apply Q].
  unfold do_io. destruct (s_io st) as [|[|e] io]; [exact Q|apply resolve_all_quiet; apply Q ..].
Qed.

Lemma shutdown_quiet : forall st, Quiet st -> Quiet (shutdown st).
Proof.
  intros st Q. unfold shutdown. pose proof (flush_quiet st Q) as F.
  destruct (s_halt (flush st)); exact F.
Qed.

Lemma truncate_files_quiet : forall names st t cur, Quiet st -> Quiet (truncate_files st t cur names).
Proof.
  induction names as [|s names IH]; intros st t cur Q; cbn; [exact Q|].
  destruct (match cur with Some c => c =? s | None => false end); [apply IH; exact Q|].
  destruct (deletable_at t (s_store st) s); [|apply IH; exact Q].
  unfold do_io. destruct (s_io st) as [|[|[| |]] io]; [exact Q|apply IH; exact Q|exact Q ..].
Qed.

Lemma step_quiet : forall cfg st ev, Quiet st -> Quiet (step cfg st ev).
Proof.
  intros cfg st ev Q. unfold step. destruct (s_halt st); [exact Q|].
  destruct ev as [w size|w size| |t|].
  - apply handle_write_quiet; exact Q.
  - apply handle_write_quiet; exact Q.
  - apply flush_quiet; exact Q.
  - apply truncate_files_quiet; exact Q.
  - apply shutdown_quiet; exact Q.
Qed.

Theorem never_panics : forall cfg hist,
  s_panic (run_incarnations cfg hist) = false /\
  N.of_nat (length (s_pending (run_incarnations cfg hist))) <= s_since (run_incarnations cfg hist).
Proof.
  intros cfg hist. apply (run_hist_ind cfg Quiet); [|split; reflexivity].
  intros keep sched io st _ _. apply fold_step_ind; [|split; reflexivity].
  intros ev st' _. apply step_quiet.
Qed.

Theorem never_panics_run : forall cfg sched io,
  s_panic (run cfg sched io) = false /\
  N.of_nat (length (s_pending (run cfg sched io))) <= s_since (run cfg sched io).
Proof. intros cfg sched io. exact (never_panics cfg [(k_none, sched, io)]). Qed.

Definition legacy_cfg := Config Legacy 200 8.
Definition repaired_cfg := Config Repaired 200 8.

(* six concurrent writes of 85 bytes in one batch, no fault: the batch straddles a rotation *)
Definition wit_sched : list sched_item :=
  [SWrite 1 85; SWrite 2 85; SWrite 3 85; SWrite 4 85; SWrite 5 85; SWrite 6 85; SFlush].
Definition wit_io : list outcome := repeat OOk 20.

Lemma legacy_rotation_witness :
  Forall (fun o => o = OOk) wit_io /\
  valid_schedule legacy_cfg wit_sched wit_io = true /\
  acked_ok (run legacy_cfg wit_sched wit_io) = [6; 5; 4; 3; 2; 1] /\
  recovered_after_crash (run legacy_cfg wit_sched wit_io) = [4; 5; 6].
Proof.
  split; [repeat constructor|]. split; [vm_compute; reflexivity|].
  split; vm_compute; reflexivity.
Qed.

(* one file, no rotation: the append of the third entry of the batch fails (nothing is
   written); the flush then finds no current writer, "syncs" nothing and acks 1 and 2 *)
Definition wit2_cfg := Config Legacy 1000000 8.
Definition wit2_sched : list sched_item := [SWrite 1 85; SWrite 2 85; SWrite 3 85; SFlush].
Definition wit2_io : list outcome := [OOk; OOk; OOk; OOk; OErr ENone].

Lemma legacy_append_error_witness :
  valid_schedule wit2_cfg wit2_sched wit2_io = true /\
  acked_ok (run wit2_cfg wit2_sched wit2_io) = [2; 1] /\
  s_err (run wit2_cfg wit2_sched wit2_io) = [3] /\
  s_halt (run wit2_cfg wit2_sched wit2_io) = false /\
  recovered_after_crash (run wit2_cfg wit2_sched wit2_io) = [].
Proof. repeat apply conj; vm_compute; reflexivity. Qed.

Lemma repaired_on_witnesses :
  acked_ok (run repaired_cfg wit_sched wit_io) = [6; 5; 4; 3; 2; 1] /\
  recovered_after_crash (run repaired_cfg wit_sched wit_io) = [1; 2; 3; 4; 5; 6] /\
  acked_ok (run (Config Repaired 1000000 8) wit2_sched (wit2_io ++ [OOk])) = [2; 1] /\
  recovered_after_crash (run (Config Repaired 1000000 8) wit2_sched (wit2_io ++ [OOk])) = [1; 2].
Proof. repeat apply conj; vm_compute; reflexivity. Qed.

Definition ex_sched : list sched_item :=
  [SWrite 1 85; SWrite 2 85; SWrite 3 85; SWrite 4 85; SFlush; SWrite 5 85; SWrite 6 85; SFlush; SWrite 7 85; SFlush].
Definition ex_io : list outcome :=
  [OOk; OOk; OOk; OOk; OOk;       (* create 1, header, entries 1 2 3 *)
   OOk; OOk; OOk; OErr ETorn;     (* rotation: fsync of file 1, create 2, header; entry 4 torn *)
   OOk;                           (* flush: fsync of file 2 -> 1 2 3 acked *)
   OOk; OOk; OOk; OOk; OErr EFull;(* forced rotation: fsync 2, create 3, header, entry 5; entry 6 written but error *)
   OErr ENone;                    (* flush: fsync of file 3 fails -> 5 reported failed *)
   OOk; OOk; OOk; OOk; OOk].      (* forced rotation, entry 7, flush *)

(* [ex_hist2], two incarnations: the first completes (1-6 acked); the second is killed
   after its entries 7 and 8 reached the file but before the flush fsync (nothing acked; a
   crash that drops unsynced tails loses 7 and 8, one that spares them keeps them).
   [ex_hist3] adds a third, which starts on a store where they were spared and acks 9. *)
Definition k_all : N -> nat := fun _ => 99%nat.
Definition ex_hist2 : list ((N -> nat) * list sched_item * list outcome) :=
  [(k_none, wit_sched, repeat OOk 12);
   (k_none, [SWrite 7 85; SWrite 8 85; SFlush], [OOk; OOk; OOk; OOk])].
Definition ex_hist3 : list ((N -> nat) * list sched_item * list outcome) :=
  ex_hist2 ++ [(k_all, [SWrite 9 85; SFlush], repeat OOk 4)].

(* Out-of-order stamps in a closed file: file 1 holds the stamps 5, 1, 3.  TruncateUpTo 3
   must keep it (its newest stamp is 5, not the last entry's 3); TruncateUpTo 5 deletes it. *)
Definition tr_sched (t : N) : list sched_item :=
  [SWrite (wid 5 1) 85; SWrite (wid 1 2) 85; SWrite (wid 3 3) 85; SFlush; SWrite (wid 9 4) 85; SFlush; STruncate t].

Definition eq_sched : list sched_item :=
  [SWrite (wid 7 1) 85; SWrite (wid 7 2) 85; SWrite (wid 7 3) 85; SWrite (wid 7 4) 85; SWrite (wid 6 5) 85; SFlush].
