(* Lemmas about Model/Conn.v: the GET/SET recognisers accept exactly frames the generic decoder
   accepts, with the same content and length; the handler with fast path and batching answers
   every read exactly like a handler that only uses the generic decoder; consequently its output
   does not depend on how the stream is cut into reads, on the pipeline depth or on the batching
   configuration.  Then the transaction state machines (MULTI / EXEC / DISCARD / WATCH) of the
   connection handler, alone and with a second client interleaved, and of the executor. *)
From Coq Require Import String Ascii NArith ZArith List Bool Lia Arith.
From RV Require Import Lib.Hex Lib.ListFacts Model.Resp Proofs.RespProofs Model.Conn Model.MiniExec.
From RV Require Lib.Bytes.
Import ListNotations.

Definition get_frame (nm key : bytes) : resp := RArr [RBulk nm; RBulk key].
Definition set_frame (nm key val : bytes) : resp := RArr [RBulk nm; RBulk key; RBulk val].

Definition reads_ok (g : cfg) (reads : list bytes) : Prop :=
  Forall (fun r => r <> []) reads /\
  (N.of_nat (length (concat reads)) <= max_buffer_size g)%N /\
  size_ok (concat reads).

(* the schedule of finding C05-watch-nonstring (both snapshots of the watched list are the same WRONGTYPE
   error); [b_] is [str] under the name the statement of C05_watch_nonstring_refuted uses *)
Definition b_ (s : string) : bytes := str s.
Definition refute_sched : list (bool * resp) :=
  [ (false, frame [b_ "LPUSH"; b_ "k"; b_ "a"]);                 (* B creates the list *)
    (true,  frame [b_ "WATCH"; b_ "k"]);                          (* A watches it *)
    (false, frame [b_ "LPUSH"; b_ "k"; b_ "b"]);                  (* B modifies it in place *)
    (true,  frame [b_ "MULTI"]);
    (true,  frame [b_ "SET"; b_ "j"; b_ "1"]);
    (true,  frame [b_ "EXEC"]) ].

Lemma starts_with_split p b : starts_with p b = true -> b = p ++ skipn (length p) b.
Proof.
  unfold starts_with. intros H. apply Bytes.bytes_eqb_eq in H.
  rewrite <- H at 1. symmetry. apply firstn_skipn.
Qed.

Lemma memchr_split c t p : memchr c t = Some p ->
  exists ds r, t = ds ++ c :: r /\ Forall (fun x => x <> c) ds /\
               length ds = p /\ firstn p t = ds /\ skipn (S p) t = r.
Proof.
  revert p. induction t as [|x t IH]; intros p H; [discriminate|].
  cbn [memchr] in H. destruct (x =? c)%N eqn:E.
  - apply N.eqb_eq in E. subst x. inversion H. exists [], t. auto.
  - destruct (memchr c t) as [q|]; [|discriminate]. inversion H.
    destruct (IH q eq_refl) as (ds & r & Ht & Hds & Hl & Hf & Hs).
    apply N.eqb_neq in E. exists (x :: ds), r. cbn [app length firstn skipn].
    rewrite Hf, Hl, <- Ht. auto.
Qed.

Lemma memchr_none c t : memchr c t = None -> Forall (fun x => x <> c) t.
Proof.
  induction t as [|x t IH]; intros H; [constructor|].
  cbn [memchr] in H. destruct (x =? c)%N eqn:E; [discriminate|].
  destruct (memchr c t); [discriminate|]. constructor; [now apply N.eqb_neq|auto].
Qed.

(* a line without CR holds no CR LF, also when a lone byte (a CR, say) follows it *)
Lemma find_crlf_none s r : Forall (fun x => x <> 13%N) s -> length r <= 1 -> find_crlf (s ++ r) = None.
Proof.
  intros Hs Hr. induction Hs as [|x t Hx Ht IH]; cbn [app].
  - destruct r as [|y [|z r]]; [reflexivity|reflexivity|cbn in Hr; lia].
  - destruct (t ++ r) as [|y u]; [reflexivity|].
    rewrite find_crlf_cons2, IH. apply N.eqb_neq in Hx. now rewrite Hx.
Qed.

Lemma parse_bulk_len_fast_i64 s n : parse_bulk_len_fast s = Some n -> parse_i64 s = Some (Z.of_N n).
Proof.
  unfold parse_bulk_len_fast, parse_usize, parse_i64. destruct s as [|c t]; [discriminate|].
  destruct (c =? 45)%N eqn:E45.
  - apply N.eqb_eq in E45. subst c. cbn. discriminate.
  - cbn [orb]. destruct (if (c =? 43)%N then t else c :: t) as [|d ds]; [discriminate|].
    destruct (digits_val (d :: ds) 0) as [m|]; [|discriminate].
    destruct (m <? USIZE_LIM_N)%N; [|discriminate].
    destruct (m <? I64_LIM)%N; [|discriminate].
    intros H. inversion H. reflexivity.
Qed.

(* the length test is written as scan_bulk has it *)
Lemma parse_bulk_shape ds rest n b : b = 36%N :: ds ++ 13%N :: 10%N :: rest ->
  Forall (fun c => c <> 13%N) ds -> parse_i64 ds = Some (Z.of_N n) -> size_ok b ->
  fst (parse_bulk b) =
  if (N.of_nat (length b) <? N.of_nat (length ds + 3) + n + 2)%N then Incomplete
  else Done (RBulk (firstn (N.to_nat n) rest)) (length ds + 3 + N.to_nat n + 2).
Proof.
  intros Hb Hds Hp Hs. pose proof (parse_i64_range _ _ Hp) as Hn.
  assert (Hsk : skipn (S (length ds) + 2) b = rest) by (rewrite Hb; apply skipn_header).
  assert (Hlen : length b = S (length ds) + 2 + length rest) by (rewrite Hb; apply length_header).
  pose proof (size_ok_usize b (S (length ds) + 2) (Z.of_N n) Hs ltac:(lia) ltac:(lia)) as Hu.
  pose proof (with_len_line RNilBulk 36%N ds n rest (bulk_body b) ltac:(discriminate) Hds Hp) as Hw.
  rewrite <- Hb in Hw. rewrite parse_bulk_eq, Hw. unfold bulk_body. cbv zeta.
  rewrite !(proj2 (Z.leb_gt _ _)) by lia.
  destruct (N.of_nat (length b) <? N.of_nat (length ds + 3) + n + 2)%N eqn:E.
  - apply N.ltb_lt in E. rewrite (proj2 (Z.ltb_lt _ _)) by lia. reflexivity.
  - apply N.ltb_ge in E. rewrite (proj2 (Z.ltb_ge _ _)) by lia.
    rewrite <- Z_N_nat, N2Z.id, slice_ok, Hsk by lia. cbn [fst]. f_equal; [f_equal; f_equal|]; lia.
Qed.

Lemma scan_bulk_spec base d a : size_ok a ->
  match scan_bulk base a with
  | SOk key used => fst (parse_d true d a) = Done (RBulk key) used
  | SNeed => fst (parse_d true d a) = Incomplete
  | SNot => True
  end.
Proof.
  intros Hs. destruct a as [|c t]; [apply parse_d_nil|].
  unfold scan_bulk. destruct (c =? 36)%N eqn:Ec; cbn [negb]; [|exact I].
  apply N.eqb_eq in Ec. subst c. rewrite parse_d_bulk.
  destruct (memchr 13 t) as [p|] eqn:Em.
  2:{ (* no CR yet *)
      apply memchr_none in Em. unfold parse_bulk.
      rewrite <- (app_nil_r t). change (36%N :: t ++ []) with ((36%N :: t) ++ []).
      rewrite find_crlf_none; [reflexivity| |cbn; lia].
      constructor; [discriminate|exact Em]. }
  destruct (memchr_split _ _ _ Em) as (ds & r & Ht & Hds & Hl & Hf & Hsk).
  rewrite nth_error_skipn, Hsk, Hf. destruct r as [|lf rest]; cbn [hd_error].
  { (* the CR is the last byte *)
    rewrite Ht. unfold parse_bulk.
    change (36%N :: ds ++ [13%N]) with ((36%N :: ds) ++ [13%N]).
    rewrite find_crlf_none; [reflexivity| |cbn; lia].
    constructor; [discriminate|exact Hds]. }
  destruct (lf =? 10)%N eqn:El; cbn [negb]; [|exact I]. apply N.eqb_eq in El. subst lf.
  destruct (parse_bulk_len_fast ds) as [n|] eqn:Ep; [|exact I].
  apply parse_bulk_len_fast_i64 in Ep. cbv zeta.
  (* a = "$" ds "\r\n" rest: both sides make the same comparison *)
  destruct (USIZE_LIM_N <=? N.of_nat (base + (p + 3)) + n + 2)%N; [exact I|].
  assert (Hrest : skipn (p + 3) (36%N :: t) = rest).
  { replace (p + 3) with (S (S p + 1)) by lia. cbn [skipn]. now rewrite <- skipn_plus, Hsk. }
  rewrite Hrest, (parse_bulk_shape ds rest n _ (f_equal _ Ht) Hds Ep Hs). subst p.
  now destruct (_ <? _)%N.
Qed.

Definition on_done (o : outcome) (f : resp -> nat -> outcome) : outcome :=
  match o with Done v c => f v c | _ => o end.

Fixpoint elems (rec : bytes -> outcome * N) (k : nat) (a : bytes) (acc : list resp) (off : nat) : outcome :=
  match k with
  | O => Done (RArr (rev acc)) off
  | S k' => on_done (fst (rec a)) (fun v c => elems rec k' (skipn c a) (v :: acc) (off + c))
  end.

Lemma arr_loop_elems rec : fst (rec []) = Incomplete -> Bnd rec ->
  forall k lf input off acc, off <= length input < lf + off ->
  fst (arr_loop true rec lf input (N.of_nat k) off acc) = elems rec k (skipn off input) acc off.
Proof.
  intros Hnil Hb. induction k as [|k IH]; intros lf input off acc Ho.
  - now rewrite arr_loop_zero.
  - destruct lf as [|lf]; [lia|]. rewrite arr_loop_S by (apply N.eqb_neq; lia). cbn [andb elems].
    destruct (length input <=? off) eqn:E.
    + (* RespCodec's explicit test is what the element parser says of the empty slice *)
      apply Nat.leb_le in E. now rewrite skipn_all2, Hnil.
    + apply Nat.leb_gt in E. rewrite (proj2 (Nat.ltb_ge _ _)) by lia. cbv zeta.
      destruct (fst (rec (skipn off input))) as [v c| | | |] eqn:Er; cbn [on_done]; try exact Er.
      apply Hb in Er. rewrite skipn_length in Er.
      rewrite fst_tick. replace (N.of_nat (S k) - 1)%N with (N.of_nat k) by lia.
      rewrite IH by lia. now rewrite skipn_plus.
Qed.

Lemma parse_arr_elems d dep k rest : parse_i64 [d] = Some (Z.of_N (N.of_nat k)) ->
  fst (parse_d true (S dep) (42%N :: d :: 13%N :: 10%N :: rest)) = elems (parse_d true dep) k rest [] 4.
Proof.
  intros Hp. assert (Hd : d <> 13%N) by (intros ->; discriminate Hp).
  rewrite parse_d_eq. cbn [N.eqb Pos.eqb]. rewrite parse_array_eq.
  rewrite (with_len_line RNilArr 42%N [d] (N.of_nat k) rest) by (assumption || discriminate || now repeat constructor).
  unfold array_body. cbn [length Nat.add].
  rewrite (proj2 (Nat.ltb_ge _ _)), fst_tick, N2Z.id by lia.
  apply (arr_loop_elems _ (parse_d_nil _ _) (parse_d_bnd _ _)); cbn [length]; lia.
Qed.

(* a whole frame is read with MAX_DEPTH = S 31 levels, so its elements with 31 *)
Lemma parse_named d k nm a b :
  parse_i64 [d] = Some (Z.of_N (N.of_nat (S k))) -> size_ok b ->
  b = [42; d; 13; 10]%N ++ encode (RBulk nm) ++ a ->
  parse true b = elems (parse_d true 31) k a [RBulk nm] (4 + length (encode (RBulk nm))).
Proof.
  intros Hp Hs ->. unfold parse, Resp.run, MAX_DEPTH. cbn [app] in *.
  rewrite (parse_arr_elems d 31 (S k)) by assumption.
  cbn [elems]. rewrite encode_decode_d; [cbn [on_done]; now rewrite skipn_app_exact|reflexivity|].
  unfold size_ok in *. cbn [length] in Hs. lia.
Qed.

Lemma get_hdr_split b : is_get_hdr b = true ->
  exists nm, is_get_name nm /\ b = [42; 50; 13; 10]%N ++ encode (RBulk nm) ++ skipn HEADER_LEN b.
Proof.
  unfold is_get_hdr. intros H. apply orb_prop in H. destruct H as [H|H]; apply starts_with_split in H.
  - exists NAME_GET_U. split; [now left|]. exact H.
  - exists NAME_GET_L. split; [now right|]. exact H.
Qed.

Lemma set_hdr_split b : is_set_hdr b = true ->
  exists nm, is_set_name nm /\ b = [42; 51; 13; 10]%N ++ encode (RBulk nm) ++ skipn HEADER_LEN b.
Proof.
  unfold is_set_hdr. intros H. apply orb_prop in H. destruct H as [H|H]; apply starts_with_split in H.
  - exists NAME_SET_U. split; [now left|]. exact H.
  - exists NAME_SET_L. split; [now right|]. exact H.
Qed.

(* "*2\r\n" or "*3\r\n", then "$3\r\nGET\r\n" and the like *)
Lemma hdr_len nm : is_get_name nm \/ is_set_name nm -> 4 + length (encode (RBulk nm)) = HEADER_LEN.
Proof. intros [[->| ->]|[->| ->]]; reflexivity. Qed.

Section Recog.
  Variable utf8_ok : bytes -> bool.

  Definition fres_sound (b : bytes) (r : fres) : Prop :=
    match r with
    | FGet key n => exists nm, is_get_name nm /\ parse true b = Done (get_frame nm key) n /\ utf8_ok key = true
    | FSet key val n => exists nm, is_set_name nm /\ parse true b = Done (set_frame nm key val) n /\
                                   utf8_ok key = true
    | FNeed => parse true b = Incomplete
    | FNot => True
    end.

  Lemma recog_get_sound b : size_ok b -> is_get_hdr b = true -> fres_sound b (recog_get utf8_ok b).
  Proof.
    intros Hs Hh. destruct (get_hdr_split b Hh) as (nm & Hnm & Hb). unfold fres_sound, recog_get.
    rewrite (parse_named 50 1 nm _ b eq_refl Hs Hb), hdr_len by now left.
    cbn [elems].
    pose proof (scan_bulk_spec HEADER_LEN 31 _ (size_ok_skipn b HEADER_LEN Hs)) as Hk.
    destruct (scan_bulk HEADER_LEN (skipn HEADER_LEN b)) as [key used| |]; [|now rewrite Hk|exact I].
    destruct (utf8_ok key) eqn:Eu; [|exact I].
    exists nm. rewrite Hk. auto.
  Qed.

  Lemma recog_set_sound b : size_ok b -> is_set_hdr b = true -> fres_sound b (recog_set utf8_ok b).
  Proof.
    intros Hs Hh. destruct (set_hdr_split b Hh) as (nm & Hnm & Hb). unfold fres_sound, recog_set.
    rewrite (parse_named 51 2 nm _ b eq_refl Hs Hb), hdr_len by now right.
    cbn [elems]. set (a := skipn HEADER_LEN b).
    assert (Hsa : size_ok a) by now apply size_ok_skipn.
    pose proof (scan_bulk_spec HEADER_LEN 31 a Hsa) as Hk.
    destruct (scan_bulk HEADER_LEN a) as [key u1| |]; [|now rewrite Hk|exact I].
    rewrite Hk. cbn [on_done].
    replace (skipn (HEADER_LEN + u1) b) with (skipn u1 a) by apply skipn_plus.
    pose proof (scan_bulk_spec (HEADER_LEN + u1) 31 _ (size_ok_skipn a u1 Hsa)) as Hv.
    destruct (scan_bulk (HEADER_LEN + u1) (skipn u1 a)) as [val u2| |]; [|now rewrite Hv|exact I].
    destruct (utf8_ok key) eqn:Eu; [|exact I].
    exists nm. rewrite Hv. auto.
  Qed.

  Lemma try_fast_path_sound b : size_ok b -> fres_sound b (try_fast_path utf8_ok b).
  Proof.
    intros Hs. unfold try_fast_path. destruct (length b <? 12); [exact I|].
    destruct (is_get_hdr b) eqn:Eg; [now apply recog_get_sound|].
    destruct (is_set_hdr b) eqn:Es; [now apply recog_set_sound|exact I].
  Qed.
End Recog.

Lemma decode_stream_done b v n : parse true b = Done v n ->
  decode_stream true b = (v :: fst (decode_stream true (skipn n b)), snd (decode_stream true (skipn n b))).
Proof. intros H. now rewrite decode_stream_eq, H. Qed.

Lemma decode_stream_incomplete b : parse true b = Incomplete -> decode_stream true b = ([], TMore b).
Proof. intros H. now rewrite decode_stream_eq, H. Qed.

Lemma decode_stream_err b k : parse true b = Err k -> decode_stream true b = ([], TErr k).
Proof. intros H. now rewrite decode_stream_eq, H. Qed.

Definition tail_ok (b : bytes) (t : stail) : Prop :=
  match t with
  | TMore rest => parse true rest = Incomplete /\ length rest <= length b
  | TErr _ => True
  | _ => False
  end.

Lemma decode_all_tail_ok : forall f b, size_ok b -> length b < f -> tail_ok b (snd (decode_all true f b)).
Proof.
  induction f as [|f IH]; intros b Hs Hl; [lia|]. cbn [decode_all].
  destruct (parse true b) as [v n| |k| |] eqn:E; cbn [snd tail_ok].
  - pose proof (parse_consumed_exact _ _ _ _ E) as [Hn _].
    specialize (IH (skipn n b) (size_ok_skipn _ _ Hs)). unfold tail_ok in *. rewrite skipn_length in IH.
    specialize (IH ltac:(lia)).
    destruct (snd (decode_all true f (skipn n b))); auto. destruct IH. split; [assumption|lia].
  - split; [exact E|lia].
  - exact I.
  - exact (parse_no_panic true b Hs E).
  - exact (parse_no_oof true b E).
Qed.

Lemma decode_stream_tail_ok b : size_ok b -> tail_ok b (snd (decode_stream true b)).
Proof. intros Hs. apply decode_all_tail_ok; [exact Hs|lia]. Qed.

Lemma decode_stream_app consumed chunk rest : size_ok (consumed ++ chunk) ->
  snd (decode_stream true consumed) = TMore rest ->
  decode_stream true (consumed ++ chunk) =
  (fst (decode_stream true consumed) ++ fst (decode_stream true (rest ++ chunk)),
   snd (decode_stream true (rest ++ chunk))).
Proof.
  intros Hs Ht. rewrite <- (feed_decode true consumed chunk Hs). unfold feed. now rewrite Ht.
Qed.

Lemma decode_stream_err_stable consumed x e : size_ok (consumed ++ x) ->
  snd (decode_stream true consumed) = TErr e ->
  decode_stream true (consumed ++ x) = decode_stream true consumed.
Proof.
  intros Hs Ht. rewrite <- (feed_decode true consumed x Hs). unfold feed. now rewrite Ht.
Qed.

Lemma sanitize_line_ok s : line_ok (sanitize s) = true.
Proof.
  unfold line_ok, sanitize. apply forallb_forall. intros c Hc. apply in_map_iff in Hc.
  destruct Hc as (x & <- & _).
  destruct (x =? 13)%N eqn:E1; [reflexivity|]. destruct (x =? 10)%N eqn:E2; [reflexivity|].
  cbn [orb]. now rewrite E1, E2.
Qed.

Lemma wf_resp_mono : forall v d, wf_resp d v = true -> wf_resp (S d) v = true.
Proof.
  induction v as [s|s|z| |s| |l IH] using resp_ind2; intros d H; try exact H.
  - destruct d; [discriminate|reflexivity].
  - destruct d as [|d]; [discriminate|]. cbn [wf_resp] in *. rewrite forallb_forall in *.
    intros x Hx. rewrite Forall_forall in IH. apply IH; auto.
Qed.

Lemma wire_decodes : forall rs x, Forall (fun r => wf_resp MAX_DEPTH r = true) rs ->
  size_ok (wire rs ++ x) ->
  decode_stream true (wire rs ++ x) = (rs ++ fst (decode_stream true x), snd (decode_stream true x)).
Proof.
  induction rs as [|r rs IH]; intros x Hwf Hs.
  - unfold wire. cbn [flat_map app]. now destruct (decode_stream true x).
  - apply Forall_cons_iff in Hwf. destruct Hwf as [Hr Hrs]. unfold wire in *. cbn [flat_map] in *. rewrite <- app_assoc in *.
    pose proof (encode_decode_app true r (flat_map encode rs ++ x) Hr Hs) as Hp.
    rewrite (decode_stream_done _ _ _ Hp), skipn_app_exact, IH; [reflexivity|exact Hrs|].
    unfold size_ok in *. rewrite !app_length in *. lia.
Qed.

Section Replies.
  Variable St : Type.
  Variable cmd : Type.
  Variable decode_cmd : resp -> cmd + bytes.
  Variable exec : St -> cmd -> St * resp.
  Variable kind : cmd -> ckind.
  Variable cmd_get : bytes -> cmd.
  Variable stub_reply : cmd -> resp.

  Notation HF := (handle_frame St cmd decode_cmd exec kind cmd_get stub_reply).

  Lemma run_queue_wf (p : resp -> bool) : (forall s cm, p (snd (exec s cm)) = true) ->
    forall q s, forallb p (snd (run_queue St cmd exec s q)) = true.
  Proof.
    intros Hex. induction q as [|c q IH]; intros s; [reflexivity|]. cbn [run_queue].
    pose proof (Hex s c) as Hc. destruct (exec s c) as [s1 r]. cbn [snd] in Hc.
    specialize (IH s1). destruct (run_queue St cmd exec s1 q) as [s2 l]. cbn [snd forallb] in *.
    now rewrite Hc, IH.
  Qed.

  (* The backend's replies are asked to fit 31 levels, one below MAX_DEPTH, because EXEC wraps them in
     an array.  Every arm of dispatch appends one reply; it is a fixed text (evaluated), a sanitised
     text, a stub reply, a reply of exec, or the array of run_queue's replies. *)
  Lemma handle_frame_reply (c : core St cmd) v :
    exists r, outp _ _ (HF c v) = outp _ _ c ++ [r] /\
      ((forall s cm, wf_resp 31 (snd (exec s cm)) = true) -> (forall cm, wf_resp 31 (stub_reply cm) = true) ->
       wf_resp MAX_DEPTH r = true).
  Proof.
    unfold handle_frame. destruct (decode_cmd v) as [cm|e].
    2:{ eexists. split; [reflexivity|]. intros _ _. apply sanitize_line_ok. }
    unfold dispatch. destruct (in_tx cmd (txs St cmd c)).
    - destruct (kind cm); try (eexists; split; reflexivity).
      + (* KExec *)
        destruct (tx_err cmd (txs St cmd c)); [eexists; split; reflexivity|].
        destruct (watch_unchanged St cmd exec cmd_get (st St cmd c) (watched cmd (txs St cmd c))) as [s1 same].
        destruct same; [|eexists; split; reflexivity].
        destruct (run_queue St cmd exec s1 (queue cmd (txs St cmd c))) as [s2 rs] eqn:Eq.
        eexists. split; [reflexivity|]. intros Hex _.
        change rs with (snd (s2, rs)). rewrite <- Eq. now apply run_queue_wf.
      + (* KUnknown *)
        eexists. split; [reflexivity|]. intros _ _. apply sanitize_line_ok.
    - destruct (kind cm); try (eexists; split; reflexivity).
      { (* KWatch *)
        destruct (snapshot St cmd exec cmd_get (st St cmd c) keys). eexists. split; reflexivity. }
      (* KStubChan, KStubOther *)
      1, 2: eexists; (split; [reflexivity|]); intros _ Hst; apply wf_resp_mono, Hst.
      (* KUnknown, KPlain *)
      all: destruct (exec (st St cmd c) cm) as [s1 r] eqn:Ee; eexists; (split; [reflexivity|]); intros Hex _;
        change r with (snd (s1, r)); rewrite <- Ee; apply wf_resp_mono, Hex.
  Qed.

  Lemma fold_frames_length : forall fs (c : core St cmd),
    length (outp _ _ (fold_left HF fs c)) = length (outp _ _ c) + length fs.
  Proof.
    induction fs as [|v fs IH]; intros c; cbn [fold_left length]; [lia|].
    rewrite IH. destruct (handle_frame_reply c v) as (r & -> & _). rewrite app_length. cbn [length]. lia.
  Qed.

  Lemma fold_frames_prefix : forall fs (c : core St cmd) n,
    outp _ _ (fold_left HF (firstn n fs) c) = firstn (length (outp _ _ c) + n) (outp _ _ (fold_left HF fs c)).
  Proof.
    induction fs as [|v fs IH]; intros c n.
    - rewrite firstn_nil. cbn [fold_left]. rewrite firstn_all2; [reflexivity|lia].
    - destruct (handle_frame_reply c v) as (r & Hr & _). destruct n as [|n]; cbn [firstn fold_left].
      + (* nothing more is taken: the induction hypothesis at 0, cut back by the one reply to v *)
        specialize (IH (HF c v) 0). cbn [firstn fold_left] in IH.
        apply (f_equal (firstn (length (outp _ _ c)))) in IH.
        rewrite Hr, firstn_app, firstn_all, Nat.sub_diag, firstn_firstn, app_nil_r in IH.
        rewrite IH at 1. rewrite app_length. cbn [length]. f_equal. lia.
      + rewrite IH, Hr, app_length. cbn [length]. f_equal. lia.
  Qed.

  Hypothesis exec_wf : forall s cm, wf_resp 31 (snd (exec s cm)) = true.
  Hypothesis stub_wf : forall cm, wf_resp 31 (stub_reply cm) = true.

  Lemma fold_frames_wf : forall fs (c : core St cmd),
    Forall (fun r => wf_resp MAX_DEPTH r = true) (outp _ _ c) ->
    Forall (fun r => wf_resp MAX_DEPTH r = true) (outp _ _ (fold_left HF fs c)).
  Proof.
    induction fs as [|v fs IH]; intros c Hc; [exact Hc|]. cbn [fold_left]. apply IH.
    destruct (handle_frame_reply c v) as (r & -> & Hr). apply Forall_app. auto.
  Qed.

  Theorem reference_wire_decodes (s : St) stream :
    let rs := reference St cmd decode_cmd exec kind cmd_get stub_reply s stream in
    size_ok (wire rs) -> decode_stream true (wire rs) = (rs, TMore []).
  Proof.
    cbv zeta. intros Hs. rewrite <- (app_nil_r (wire _)) in *.
    rewrite wire_decodes; [cbn; now rewrite app_nil_r| |exact Hs].
    apply fold_frames_wf. constructor.
  Qed.
End Replies.

Section Equiv.
  Variable utf8_ok : bytes -> bool.
  Variable St : Type.
  Variable cmd : Type.
  Variable decode_cmd : resp -> cmd + bytes.
  Variable exec : St -> cmd -> St * resp.
  Variable fast_get : St -> bytes -> St * resp.
  Variable fast_set : St -> bytes -> bytes -> St * resp.
  Variable batch_get : St -> list bytes -> St * list resp.
  Variable batch_set : St -> list (bytes * bytes) -> St * list resp.
  Variable kind : cmd -> ckind.
  Variable cmd_get : bytes -> cmd.
  Variable cmd_set : bytes -> bytes -> cmd.
  Variable stub_reply : cmd -> resp.

  Hypothesis BOK : backend_ok utf8_ok St cmd decode_cmd exec fast_get fast_set batch_get batch_set kind cmd_get cmd_set.

  Notation HF := (handle_frame St cmd decode_cmd exec kind cmd_get stub_reply).
  Notation core := (core St cmd).
  Notation conn := (conn St cmd).
  Notation DRAIN := (drain utf8_ok St cmd decode_cmd exec fast_get fast_set kind cmd_get stub_reply).
  Notation BATCH := (batch_phase utf8_ok St cmd batch_get batch_set).
  Notation ONREAD := (on_read utf8_ok St cmd decode_cmd exec fast_get fast_set batch_get batch_set kind cmd_get stub_reply).
  Notation REFREAD := (ref_read St cmd decode_cmd exec kind cmd_get stub_reply).
  Notation FGET := (do_fast_get St cmd fast_get).
  Notation FSET := (fun c p => do_fast_set St cmd fast_set c (fst p) (snd p)).

  Lemma fast_get_eq_generic (c : core) nm key :
    in_tx _ (txs _ _ c) = false -> is_get_name nm -> utf8_ok key = true ->
    HF c (get_frame nm key) = FGET c key.
  Proof.
    destruct BOK as (Hg & _ & Hkg & _ & Hfg & _).
    intros Ht Hn Hu. unfold handle_frame, get_frame. rewrite (Hg nm key Hn Hu).
    unfold dispatch, do_fast_get. rewrite Ht, Hkg, Hfg. reflexivity.
  Qed.

  Lemma fast_set_eq_generic (c : core) nm key val :
    in_tx _ (txs _ _ c) = false -> is_set_name nm -> utf8_ok key = true ->
    HF c (set_frame nm key val) = do_fast_set St cmd fast_set c key val.
  Proof.
    destruct BOK as (_ & Hs & _ & Hks & _ & Hfs & _).
    intros Ht Hn Hu. unfold handle_frame, set_frame. rewrite (Hs nm key val Hn Hu).
    unfold dispatch, do_fast_set. rewrite Ht, Hks, Hfs. reflexivity.
  Qed.

  (* what a handler that only uses the generic decoder does with a buffer *)
  Definition add_proto (c : core) : core :=
    mkCore _ _ (st _ _ c) (txs _ _ c) (outp _ _ c ++ [R_PROTO]).
  Definition dres_of (c : core) (r : list resp * stail) : dres St cmd :=
    match snd r with
    | TMore rest => DMore _ _ (fold_left HF (fst r) c) rest
    | TErr _ => DErr _ _ (add_proto (fold_left HF (fst r) c))
    | TPanic | TOutOfFuel => DPanic _ _
    end.

  Lemma dres_of_done (c : core) b v n : parse true b = Done v n ->
    dres_of c (decode_stream true b) = dres_of (HF c v) (decode_stream true (skipn n b)).
  Proof.
    (* the rest is made a pair first: comparing the two sides as they stand unfolds the decoder *)
    intros H. rewrite (decode_stream_done b v n H). now destruct (decode_stream true (skipn n b)).
  Qed.

  Lemma drain_eq : forall f (c : core) b, size_ok b -> length b < f ->
    DRAIN f c b = dres_of c (decode_stream true b).
  Proof.
    induction f as [|f IH]; intros c b Hs Hl; [lia|]. cbn [drain].
    assert (Hstep : forall v n, parse true b = Done v n ->
              DRAIN f (HF c v) (skipn n b) = dres_of c (decode_stream true b)).
    { intros v n Hp. rewrite (dres_of_done c b v n Hp). apply parse_consumed_exact in Hp.
      apply IH; [now apply size_ok_skipn|rewrite skipn_length; lia]. }
    pose proof (try_fast_path_sound utf8_ok b Hs) as Hfp.
    destruct (in_tx cmd (txs St cmd c)) eqn:Et; [|destruct (try_fast_path utf8_ok b) as [key n|key val n| |]].
    (* in a transaction (1) and when the fast path declines (5) the generic decoder decides *)
    1, 5: destruct (parse true b) eqn:E; [now apply Hstep|now rewrite decode_stream_eq, E..].
    - destruct Hfp as (nm & Hn & Hp & Hu). rewrite <- (fast_get_eq_generic c nm key) by assumption.
      now apply Hstep.
    - destruct Hfp as (nm & Hn & Hp & Hu). rewrite <- (fast_set_eq_generic c nm key val) by assumption.
      now apply Hstep.
    - now rewrite (decode_stream_incomplete b Hfp).
  Qed.

  Lemma do_batch_get_fold keys : forall c : core,
    do_batch_get St cmd batch_get c keys = fold_left FGET keys c.
  Proof.
    destruct BOK as (_ & _ & _ & _ & _ & _ & Hb & _). unfold do_batch_get. intros c. rewrite Hb. revert c.
    induction keys as [|k keys IH]; intros c; cbn [seq_gets fold_left].
    - rewrite app_nil_r. now destruct c.
    - unfold do_fast_get at 2. destruct (fast_get (st St cmd c) k) as [s1 r]. rewrite <- IH. cbn [st txs outp].
      destruct (seq_gets St fast_get s1 keys). now rewrite <- app_assoc.
  Qed.

  Lemma do_batch_set_fold pairs : forall c : core,
    do_batch_set St cmd batch_set c pairs = fold_left FSET pairs c.
  Proof.
    destruct BOK as (_ & _ & _ & _ & _ & _ & _ & Hb). unfold do_batch_set. intros c. rewrite Hb. revert c.
    induction pairs as [|[k v] pairs IH]; intros c; cbn [seq_sets fold_left fst snd].
    - rewrite app_nil_r. now destruct c.
    - unfold do_fast_set at 2. destruct (fast_set (st St cmd c) k v) as [s1 r]. rewrite <- IH. cbn [st txs outp].
      destruct (seq_sets St fast_set s1 pairs). now rewrite <- app_assoc.
  Qed.

  (* the frames a collector accepts are, to the generic decoder followed by the command layer, fast
     calls on the collected keys; the rest of the buffer is left to be decoded *)
  Lemma collect_gets_drain : forall fuel buf (c : core), size_ok buf -> in_tx _ (txs _ _ c) = false ->
    let '(keys, used) := collect_gets utf8_ok fuel buf in
    dres_of c (decode_stream true buf) = dres_of (fold_left FGET keys c) (decode_stream true (skipn used buf)).
  Proof.
    induction fuel as [|fuel IH]; intros buf c Hs Ht; [reflexivity|]. cbn [collect_gets].
    destruct ((length buf <? HEADER_LEN + 1) || negb (is_get_hdr buf)) eqn:Eg; [reflexivity|].
    apply orb_false_elim in Eg. destruct Eg as [_ Eg]. apply negb_false_iff in Eg.
    pose proof (recog_get_sound utf8_ok buf Hs Eg) as Hr.
    destruct (recog_get utf8_ok buf) as [key n| | |]; try reflexivity.
    destruct Hr as (nm & Hn & Hp & Hu).
    specialize (IH (skipn n buf) (FGET c key) (size_ok_skipn _ _ Hs)).
    destruct (collect_gets utf8_ok fuel (skipn n buf)) as [ks u]. cbn [fst snd fold_left].
    rewrite (dres_of_done c buf (get_frame nm key) n Hp), (fast_get_eq_generic c nm key Ht Hn Hu), <- skipn_plus.
    apply IH. unfold do_fast_get. now destruct (fast_get (st St cmd c) key).
  Qed.

  Lemma collect_sets_drain : forall fuel buf (c : core), size_ok buf -> in_tx _ (txs _ _ c) = false ->
    let '(pairs, used) := collect_sets utf8_ok fuel buf in
    dres_of c (decode_stream true buf) = dres_of (fold_left FSET pairs c) (decode_stream true (skipn used buf)).
  Proof.
    induction fuel as [|fuel IH]; intros buf c Hs Ht; [reflexivity|]. cbn [collect_sets].
    destruct ((length buf <? HEADER_LEN + 1) || negb (is_set_hdr buf)) eqn:Eg; [reflexivity|].
    apply orb_false_elim in Eg. destruct Eg as [_ Eg]. apply negb_false_iff in Eg.
    pose proof (recog_set_sound utf8_ok buf Hs Eg) as Hr.
    destruct (recog_set utf8_ok buf) as [|key val n| |]; try reflexivity.
    destruct Hr as (nm & Hn & Hp & Hu).
    specialize (IH (skipn n buf) (do_fast_set St cmd fast_set c key val) (size_ok_skipn _ _ Hs)).
    destruct (collect_sets utf8_ok fuel (skipn n buf)) as [ps u]. cbn [fst snd fold_left].
    rewrite (dres_of_done c buf (set_frame nm key val) n Hp), (fast_set_eq_generic c nm key val Ht Hn Hu), <- skipn_plus.
    apply IH. unfold do_fast_set. now destruct (fast_set (st St cmd c) key val).
  Qed.

  Lemma batch_then_drain_eq g (c : core) b : size_ok b ->
    (let '(c1, b1) := BATCH g c b in DRAIN (S (length b1)) c1 b1) = dres_of c (decode_stream true b).
  Proof.
    intros Hs.
    assert (Hplain : forall c' b', size_ok b' -> DRAIN (S (length b')) c' b' = dres_of c' (decode_stream true b')).
    { intros c' b' Hs'. apply drain_eq; [exact Hs'|lia]. }
    unfold batch_phase.
    destruct ((min_pipeline_buffer g <=? N.of_nat (length b))%N && negb (in_tx cmd (txs St cmd c))) eqn:Ec;
      [|now apply Hplain].
    apply andb_prop in Ec. destruct Ec as [_ Ht]. apply negb_true_iff in Ht.
    pose proof (collect_gets_drain (S (length b)) b c Hs Ht) as Hg.
    destruct (collect_gets utf8_ok (S (length b)) b) as [keys used].
    (* after the GET batch *)
    remember (if (batch_threshold g <=? N.of_nat (length keys))%N
              then (do_batch_get St cmd batch_get c keys, skipn used b) else (c, b)) as mid eqn:Hmid.
    destruct mid as [c1 b1].
    assert (H1 : size_ok b1 /\ in_tx _ (txs _ _ c1) = false /\
                 dres_of c (decode_stream true b) = dres_of c1 (decode_stream true b1)).
    { destruct (batch_threshold g <=? N.of_nat (length keys))%N; inversion Hmid; [|auto].
      split; [now apply size_ok_skipn|]. split; [|now rewrite do_batch_get_fold].
      unfold do_batch_get. now destruct (batch_get (st St cmd c) keys). }
    destruct H1 as (Hs1 & Ht1 & ->).
    destruct (min_pipeline_buffer g <=? N.of_nat (length b1))%N; [|now apply Hplain].
    pose proof (collect_sets_drain (S (length b1)) b1 c1 Hs1 Ht1) as Hg2.
    destruct (collect_sets utf8_ok (S (length b1)) b1) as [pairs used2].
    destruct (batch_threshold g <=? N.of_nat (length pairs))%N; [|now apply Hplain].
    rewrite Hplain, do_batch_set_fold by now apply size_ok_skipn. symmetry. exact Hg2.
  Qed.

  (* a read neither EOF nor over the buffer limit is answered exactly as by the generic-only handler *)
  Lemma on_read_eq_ref g (k : conn) chunk :
    chunk <> [] ->
    (N.of_nat (length (cbuf _ _ k)) + N.of_nat (length chunk) <= max_buffer_size g)%N ->
    size_ok (cbuf _ _ k ++ chunk) ->
    ONREAD g k chunk = REFREAD k chunk.
  Proof.
    intros Hne Hfit Hs. unfold on_read, ref_read. destruct (cstat St cmd k); try reflexivity.
    destruct chunk as [|x chunk]; [contradiction|].
    rewrite (proj2 (N.ltb_ge _ _) Hfit).
    set (b := cbuf St cmd k ++ x :: chunk) in *.
    pose proof (batch_then_drain_eq g (ccore St cmd k) b Hs) as Hp.
    destruct (BATCH g (ccore St cmd k) b) as [c1 b1]. rewrite Hp.
    pose proof (decode_stream_tail_ok b Hs) as Ht.
    unfold dres_of. destruct (snd (decode_stream true b)); try contradiction; reflexivity.
  Qed.

  Lemma ref_read_buf_len (k : conn) chunk : size_ok (cbuf _ _ k ++ chunk) ->
    length (cbuf _ _ (REFREAD k chunk)) <= length (cbuf _ _ k ++ chunk).
  Proof.
    intros Hs. unfold ref_read. destruct (cstat St cmd k); try (rewrite app_length; lia).
    pose proof (decode_stream_tail_ok _ Hs) as Ht.
    destruct (snd (decode_stream true (cbuf St cmd k ++ chunk))); cbn [cbuf tail_ok] in *; try contradiction;
      [lia|cbn; lia].
  Qed.

  Lemma ref_read_size_ok (k : conn) chunk rest : size_ok (cbuf _ _ k ++ chunk ++ rest) ->
    size_ok (cbuf _ _ k ++ chunk) /\ size_ok (cbuf _ _ (REFREAD k chunk) ++ rest).
  Proof.
    rewrite app_assoc. intros Hs. pose proof (size_ok_app_l _ _ Hs) as Hs1. split; [exact Hs1|].
    pose proof (ref_read_buf_len k chunk Hs1). unfold size_ok in *. rewrite !app_length in *. lia.
  Qed.

  Lemma fold_on_read_eq g : forall reads (k : conn),
    Forall (fun r => r <> []) reads ->
    (N.of_nat (length (cbuf _ _ k) + length (concat reads)) <= max_buffer_size g)%N ->
    size_ok (cbuf _ _ k ++ concat reads) ->
    fold_left (ONREAD g) reads k = fold_left REFREAD reads k.
  Proof.
    induction reads as [|chunk reads IH]; intros k Hne Hfit Hs; [reflexivity|].
    apply Forall_cons_iff in Hne. destruct Hne as [Hc Hne']. cbn [fold_left concat] in *.
    rewrite app_length in Hfit. destruct (ref_read_size_ok k chunk _ Hs) as [Hs1 Hs2].
    rewrite on_read_eq_ref by (assumption || lia).
    pose proof (ref_read_buf_len k chunk Hs1) as Hl. rewrite app_length in Hl.
    apply IH; [exact Hne'|lia|exact Hs2].
  Qed.

  (* the generic-only handler keeps, read after read, exactly what the generic decoder leaves of the
     bytes received so far, and has handed it exactly the frames decoded so far *)
  Definition tracks (c0 : core) (consumed : bytes) (k : conn) : Prop :=
    cstat _ _ k = Open /\
    snd (decode_stream true consumed) = TMore (cbuf _ _ k) /\
    ccore _ _ k = fold_left HF (fst (decode_stream true consumed)) c0.

  Lemma tracks_init (s : St) : tracks (core_init _ _ s) [] (conn_init _ _ s).
  Proof. repeat split. Qed.

  Lemma ref_read_tracks c0 consumed (k : conn) chunk :
    tracks c0 consumed k -> size_ok (consumed ++ chunk) ->
    match snd (decode_stream true (consumed ++ chunk)) with
    | TMore _ => tracks c0 (consumed ++ chunk) (REFREAD k chunk)
    | TErr _ => REFREAD k chunk =
                mkConn _ _ [] (add_proto (fold_left HF (fst (decode_stream true (consumed ++ chunk))) c0)) Open
    | _ => False
    end.
  Proof.
    intros (Ho & Ht & Hc) Hs. pose proof (decode_stream_tail_ok _ Hs) as Hok. unfold tracks.
    rewrite (decode_stream_app consumed chunk _ Hs Ht) in *. cbn [fst snd] in *.
    unfold ref_read. rewrite Ho, Hc, fold_left_app.
    destruct (snd (decode_stream true (cbuf St cmd k ++ chunk))); try contradiction; repeat split.
  Qed.

  Lemma tracks_prefix c0 consumed (k : conn) x : tracks c0 consumed k -> size_ok (consumed ++ x) ->
    exists m, cstat _ _ k = Open /\
              ccore _ _ k = fold_left HF (firstn m (fst (decode_stream true (consumed ++ x)))) c0.
  Proof.
    intros (Ho & Ht & Hc) Hs. rewrite (decode_stream_app consumed x _ Hs Ht). cbn [fst].
    exists (length (fst (decode_stream true consumed))).
    now rewrite firstn_app, Nat.sub_diag, firstn_all, app_nil_r.
  Qed.

  Lemma fold_ref_tracks c0 : forall reads consumed (k : conn),
    tracks c0 consumed k -> size_ok (consumed ++ concat reads) -> wf_stream (consumed ++ concat reads) ->
    tracks c0 (consumed ++ concat reads) (fold_left REFREAD reads k).
  Proof.
    induction reads as [|chunk reads IH]; intros consumed k Htr Hs Hwf; cbn [concat fold_left] in *.
    - now rewrite app_nil_r.
    - rewrite app_assoc in *.
      pose proof (ref_read_tracks c0 consumed k chunk Htr (size_ok_app_l _ _ Hs)) as Hr.
      destruct (snd (decode_stream true (consumed ++ chunk))) as [rest1|e| |] eqn:E1; try contradiction.
      + now apply IH.
      + destruct Hwf as [rest Hm]. rewrite (decode_stream_err_stable _ _ _ Hs E1) in Hm. congruence.
  Qed.

  Lemma fold_ref_malformed c0 : forall reads consumed (k : conn) e,
    tracks c0 consumed k -> size_ok (consumed ++ concat reads) ->
    snd (decode_stream true (consumed ++ concat reads)) = TErr e ->
    let fs := fst (decode_stream true (consumed ++ concat reads)) in
    exists j, j <= length reads /\
      fold_left REFREAD (firstn j reads) k = mkConn _ _ [] (add_proto (fold_left HF fs c0)) Open /\
      forall i, i < j -> exists m,
        cstat _ _ (fold_left REFREAD (firstn i reads) k) = Open /\
        ccore _ _ (fold_left REFREAD (firstn i reads) k) = fold_left HF (firstn m fs) c0.
  Proof.
    induction reads as [|chunk reads IH]; intros consumed k e Htr Hs He; cbv zeta; cbn [concat] in *.
    - rewrite app_nil_r in He. destruct Htr as (_ & Ht & _). congruence.
    - pose proof (tracks_prefix c0 consumed k _ Htr Hs) as H0. rewrite app_assoc in *.
      pose proof (ref_read_tracks c0 consumed k chunk Htr (size_ok_app_l _ _ Hs)) as Hr.
      destruct (snd (decode_stream true (consumed ++ chunk))) as [rest1|e1| |] eqn:E1; try contradiction.
      + destruct (IH _ _ _ Hr Hs He) as (j & Hj & Hfin & Hpre).
        exists (S j). split; [cbn [length]; lia|]. split; [exact Hfin|].
        intros [|i] Hi; [exact H0|apply Hpre; lia].
      + rewrite (decode_stream_err_stable _ _ _ Hs E1) in *.
        exists 1. split; [cbn [length]; lia|]. split; [exact Hr|].
        intros i Hi. replace i with 0 by lia. exact H0.
  Qed.

  Lemma ref_read_alive (k : conn) chunk : size_ok (cbuf _ _ k ++ chunk) ->
    cstat _ _ k <> Dead -> parse true (cbuf _ _ k) = Incomplete ->
    cstat _ _ (REFREAD k chunk) <> Dead /\ parse true (cbuf _ _ (REFREAD k chunk)) = Incomplete.
  Proof.
    intros Hs Hd Hp. unfold ref_read. destruct (cstat St cmd k) eqn:Ek; try (split; [congruence|exact Hp]).
    pose proof (decode_stream_tail_ok _ Hs) as Ht.
    destruct (snd (decode_stream true (cbuf St cmd k ++ chunk))); try contradiction; cbn [cstat cbuf].
    - split; [discriminate|exact (proj1 Ht)].
    - split; [discriminate|reflexivity].
  Qed.

  Lemma fold_ref_alive : forall reads (k : conn), size_ok (cbuf _ _ k ++ concat reads) ->
    cstat _ _ k <> Dead -> parse true (cbuf _ _ k) = Incomplete ->
    cstat _ _ (fold_left REFREAD reads k) <> Dead /\
    parse true (cbuf _ _ (fold_left REFREAD reads k)) = Incomplete.
  Proof.
    induction reads as [|chunk reads IH]; intros k Hs Hd Hp; [auto|].
    cbn [fold_left concat] in *. destruct (ref_read_size_ok k chunk _ Hs) as [Hs1 Hs2].
    destruct (ref_read_alive k chunk Hs1 Hd Hp) as [Hd1 Hp1]. now apply IH.
  Qed.

  Notation RUN := (run utf8_ok St cmd decode_cmd exec fast_get fast_set batch_get batch_set kind cmd_get stub_reply).
  Notation REFERENCE := (reference St cmd decode_cmd exec kind cmd_get stub_reply).

  Lemma reads_ok_firstn g reads i : reads_ok g reads -> reads_ok g (firstn i reads).
  Proof.
    intros (H1 & H2 & H3). pose proof (concat_firstn_len _ reads i) as Hl. repeat split.
    - clear H2 H3 Hl. revert i. induction H1 as [|x l Hx Hl IH]; intros [|i]; cbn [firstn]; constructor; auto.
    - lia.
    - unfold size_ok in *. lia.
  Qed.

  Theorem handler_eq_generic_only g reads (s : St) : reads_ok g reads ->
    RUN g s reads = fold_left REFREAD reads (conn_init _ _ s).
  Proof.
    intros (H1 & H2 & H3). unfold run. apply fold_on_read_eq; cbn [cbuf conn_init app length]; auto.
  Qed.

  Theorem handler_eq_reference g reads (s : St) : reads_ok g reads ->
    wf_stream (concat reads) ->
    let k := RUN g s reads in
    output _ _ k = REFERENCE s (concat reads) /\
    cstat _ _ k = Open /\
    snd (decode_stream true (concat reads)) = TMore (cbuf _ _ k).
  Proof.
    intros Hok Hwf. cbv zeta. rewrite (handler_eq_generic_only g reads s Hok).
    destruct Hok as (_ & _ & H3).
    destruct (fold_ref_tracks (core_init _ _ s) reads [] (conn_init _ _ s) (tracks_init s) H3 Hwf) as (Ho & Ht & Hc).
    unfold output, reference, reference_core. rewrite Hc. auto.
  Qed.

  Corollary one_reply_per_command g reads (s : St) : reads_ok g reads ->
    wf_stream (concat reads) ->
    let k := RUN g s reads in
    let frames := fst (decode_stream true (concat reads)) in
    length (output _ _ k) = length frames /\
    forall n, firstn n (output _ _ k) = outp _ _ (fold_left HF (firstn n frames) (core_init _ _ s)).
  Proof.
    intros Hok Hwf. cbv zeta. destruct (handler_eq_reference g reads s Hok Hwf) as (Ho & _ & _).
    rewrite Ho. unfold reference, reference_core. split.
    - now rewrite fold_frames_length.
    - intros n. now rewrite fold_frames_prefix.
  Qed.

  Theorem malformed_gets_error g reads (s : St) e : reads_ok g reads ->
    snd (decode_stream true (concat reads)) = TErr e ->
    let frames := fst (decode_stream true (concat reads)) in
    exists j, j <= length reads /\
      (let k := RUN g s (firstn j reads) in
       output _ _ k = outp _ _ (fold_left HF frames (core_init _ _ s)) ++ [R_PROTO] /\
       cbuf _ _ k = [] /\ cstat _ _ k = Open) /\
      forall i, i < j ->
        cstat _ _ (RUN g s (firstn i reads)) <> Dead /\
        exists m, output _ _ (RUN g s (firstn i reads)) = firstn m (outp _ _ (fold_left HF frames (core_init _ _ s))).
  Proof.
    intros Hok He. cbv zeta.
    destruct (fold_ref_malformed (core_init _ _ s) reads [] (conn_init _ _ s) e (tracks_init s)
                (proj2 (proj2 Hok)) He) as (j & Hj & Hfin & Hpre).
    exists j. split; [exact Hj|]. split.
    - rewrite handler_eq_generic_only, Hfin by now apply reads_ok_firstn. repeat split.
    - intros i Hi. rewrite handler_eq_generic_only by now apply reads_ok_firstn.
      destruct (Hpre i Hi) as (m & Ho & Hc). split; [now rewrite Ho|].
      exists m. unfold output. now rewrite Hc, fold_frames_prefix.
  Qed.

  Theorem never_dies_never_stalls g reads (s : St) : reads_ok g reads ->
    let k := RUN g s reads in
    cstat _ _ k <> Dead /\ parse true (cbuf _ _ k) = Incomplete.
  Proof.
    intros Hok. cbv zeta. rewrite (handler_eq_generic_only g reads s Hok).
    destruct Hok as (H1 & H2 & H3).
    apply fold_ref_alive; cbn [cbuf conn_init app]; try discriminate; auto.
  Qed.

  Theorem batching_config_irrelevant g1 g2 reads (s : St) : reads_ok g1 reads -> reads_ok g2 reads ->
    RUN g1 s reads = RUN g2 s reads.
  Proof.
    intros H1 H2. now rewrite (handler_eq_generic_only g1 reads s H1), (handler_eq_generic_only g2 reads s H2).
  Qed.

  Theorem fast_path_eq_generic b (c : core) : size_ok b -> in_tx _ (txs _ _ c) = false ->
    match try_fast_path utf8_ok b with
    | FGet key n => exists nm, is_get_name nm /\ parse true b = Done (get_frame nm key) n /\
                               HF c (get_frame nm key) = do_fast_get St cmd fast_get c key
    | FSet key val n => exists nm, is_set_name nm /\ parse true b = Done (set_frame nm key val) n /\
                               HF c (set_frame nm key val) = do_fast_set St cmd fast_set c key val
    | FNeed => parse true b = Incomplete
    | FNot => True
    end.
  Proof.
    intros Hs Ht. pose proof (try_fast_path_sound utf8_ok b Hs) as H.
    destruct (try_fast_path utf8_ok b); auto.
    - destruct H as (nm & Hn & Hp & Hu). exists nm. repeat split; auto. now apply fast_get_eq_generic.
    - destruct H as (nm & Hn & Hp & Hu). exists nm. repeat split; auto. now apply fast_set_eq_generic.
  Qed.
End Equiv.

(* the backend is read off the contract [BOK] *)
Arguments handler_eq_generic_only {_ _ _ _ _ _ _ _ _ _ _ _ _} BOK.
Arguments handler_eq_reference {_ _ _ _ _ _ _ _ _ _ _ _ _} BOK.
Arguments one_reply_per_command {_ _ _ _ _ _ _ _ _ _ _ _ _} BOK.
Arguments malformed_gets_error {_ _ _ _ _ _ _ _ _ _ _ _ _} BOK.
Arguments never_dies_never_stalls {_ _ _ _ _ _ _ _ _ _ _ _ _} BOK.
Arguments batching_config_irrelevant {_ _ _ _ _ _ _ _ _ _ _ _ _} BOK.
Arguments fast_path_eq_generic {_ _ _ _ _ _ _ _ _ _ _ _ _} BOK.

Lemma resp_eqb_spec : forall a b, resp_eqb a b = true <-> a = b.
Proof.
  induction a as [s|s|z| |s| |l IH] using resp_ind2; intros b; destruct b; cbn [resp_eqb];
    try (split; [discriminate|discriminate]); try (split; reflexivity).
  - rewrite Bytes.bytes_eqb_eq. split; congruence.
  - rewrite Bytes.bytes_eqb_eq. split; congruence.
  - rewrite Z.eqb_eq. split; congruence.
  - rewrite Bytes.bytes_eqb_eq. split; congruence.
  - revert l0. induction IH as [|x l Hx Hl IHl]; intros [|y k].
    + split; reflexivity.
    + split; discriminate.
    + split; discriminate.
    + rewrite andb_true_iff, Hx, IHl. split.
      * intros [-> H]. inversion H. reflexivity.
      * intros H. inversion H. split; reflexivity.
Qed.

Lemma resp_eqb_false a b : resp_eqb a b = false <-> a <> b.
Proof.
  split.
  - intros H E. apply resp_eqb_spec in E. congruence.
  - intros H. destruct (resp_eqb a b) eqn:E; [|reflexivity]. apply resp_eqb_spec in E. contradiction.
Qed.

Section Tx.
  Variable St : Type.
  Variable cmd : Type.
  Variable decode_cmd : resp -> cmd + bytes.
  Variable exec : St -> cmd -> St * resp.
  Variable kind : cmd -> ckind.
  Variable cmd_get : bytes -> cmd.
  Variable stub_reply : cmd -> resp.

  Notation HF := (handle_frame St cmd decode_cmd exec kind cmd_get stub_reply).
  Notation DISPATCH := (dispatch St cmd exec kind cmd_get stub_reply).
  Notation core := (core St cmd).
  Notation RQ := (run_queue St cmd exec).
  Notation GETR := (get_reply St cmd exec cmd_get).
  Notation STEP2 := (step2 St cmd decode_cmd exec kind cmd_get stub_reply).
  Notation RUN2 := (run2 St cmd decode_cmd exec kind cmd_get stub_reply).
  Notation ACMDS := (a_cmds cmd decode_cmd).

  Lemma handle_frame_cmd (c : core) v cm : decode_cmd v = inl cm -> HF c v = DISPATCH c cm.
  Proof. intros H. unfold handle_frame. now rewrite H. Qed.

  Lemma queued_no_effect (c : core) v : in_tx _ (txs _ _ c) = true ->
    (forall cm, decode_cmd v = inl cm -> kind cm <> KExec) ->
    st _ _ (HF c v) = st _ _ c.
  Proof.
    intros Ht Hne. unfold handle_frame. destruct (decode_cmd v) as [cm|e] eqn:E; [|reflexivity].
    specialize (Hne cm eq_refl). unfold dispatch. rewrite Ht.
    destruct (kind cm); try reflexivity. contradiction.
  Qed.

  Lemma queued_reply (c : core) cm : in_tx _ (txs _ _ c) = true -> queueable (kind cm) ->
    DISPATCH c cm =
    mkCore _ _ (st _ _ c)
           (mkTx _ true (queue _ (txs _ _ c) ++ [cm]) (tx_err _ (txs _ _ c)) (watched _ (txs _ _ c)))
           (outp _ _ c ++ [R_QUEUED]).
  Proof. intros Ht [H|[H|H]]; unfold dispatch; rewrite Ht, H; reflexivity. Qed.

  Definition marked (c c' : core) : Prop :=
    st _ _ c' = st _ _ c /\ tx_err _ (txs _ _ c') = true /\ in_tx _ (txs _ _ c') = true /\
    queue _ (txs _ _ c') = queue _ (txs _ _ c) /\ watched _ (txs _ _ c') = watched _ (txs _ _ c) /\
    exists r, outp _ _ c' = outp _ _ c ++ [r] /\ r <> R_QUEUED.

  Lemma queue_time_error_marks (c : core) v : in_tx _ (txs _ _ c) = true ->
    ((exists e, decode_cmd v = inr e) \/
     (exists cm, decode_cmd v = inl cm /\ (kind cm = KStubChan \/ exists n, kind cm = KUnknown n))) ->
    marked c (HF c v).
  Proof.
    intros Ht [[e E]|(cm & E & Hk)]; unfold handle_frame; rewrite E.
    - rewrite Ht. repeat split. eexists; split; [reflexivity|discriminate].
    - unfold dispatch. rewrite Ht.
      destruct Hk as [Hk|[n Hk]]; rewrite Hk; repeat split; eexists; (split; [reflexivity|discriminate]).
  Qed.

  Lemma run_queue_length : forall q s, length (snd (RQ s q)) = length q.
  Proof.
    induction q as [|c q IH]; intros s; [reflexivity|]. cbn [run_queue].
    destruct (exec s c) as [s1 r]. specialize (IH s1). destruct (RQ s1 q). cbn in *. now rewrite IH.
  Qed.

  Lemma run_queue_snoc : forall q s c,
    RQ s (q ++ [c]) =
    (fst (exec (fst (RQ s q)) c), snd (RQ s q) ++ [snd (exec (fst (RQ s q)) c)]).
  Proof.
    induction q as [|d q IH]; intros s c; cbn [run_queue app].
    - cbn [fst snd app]. destruct (exec s c). reflexivity.
    - destruct (exec s d) as [s1 r]. rewrite IH. destruct (RQ s1 q). cbn. reflexivity.
  Qed.

  Lemma run_queue_eq_twin : forall q (c : core),
    in_tx _ (txs _ _ c) = false -> Forall (fun x => kind x = KPlain) q ->
    fold_left DISPATCH q c =
    mkCore _ _ (fst (RQ (st _ _ c) q)) (txs _ _ c) (outp _ _ c ++ snd (RQ (st _ _ c) q)).
  Proof.
    induction q as [|x q IH]; intros c Ht Hq.
    - cbn. rewrite app_nil_r. now destruct c.
    - apply Forall_cons_iff in Hq. destruct Hq as [Hx Hq']. cbn [fold_left run_queue].
      unfold dispatch at 2. rewrite Ht, Hx. destruct (exec (st St cmd c) x) as [s1 r].
      rewrite IH; [|exact Ht|exact Hq']. cbn [st txs outp].
      destruct (RQ s1 q). cbn. now rewrite <- app_assoc.
  Qed.

  Lemma exec_applies (c : core) cm s1 :
    in_tx _ (txs _ _ c) = true -> tx_err _ (txs _ _ c) = false -> kind cm = KExec ->
    watch_unchanged St cmd exec cmd_get (st _ _ c) (watched _ (txs _ _ c)) = (s1, true) ->
    DISPATCH c cm = mkCore _ _ (fst (RQ s1 (queue _ (txs _ _ c)))) (tx_idle cmd)
                           (outp _ _ c ++ [RArr (snd (RQ s1 (queue _ (txs _ _ c))))]).
  Proof.
    intros Ht He Hk Hw. unfold dispatch. rewrite Ht, Hk, He, Hw.
    now destruct (RQ s1 (queue cmd (txs St cmd c))).
  Qed.

  Lemma exec_watch_failed (c : core) cm s1 :
    in_tx _ (txs _ _ c) = true -> tx_err _ (txs _ _ c) = false -> kind cm = KExec ->
    watch_unchanged St cmd exec cmd_get (st _ _ c) (watched _ (txs _ _ c)) = (s1, false) ->
    DISPATCH c cm = mkCore _ _ s1 (tx_idle cmd) (outp _ _ c ++ [RNilArr]).
  Proof. intros Ht He Hk Hw. unfold dispatch. now rewrite Ht, Hk, He, Hw. Qed.

  Lemma exec_aborts (c : core) cm :
    in_tx _ (txs _ _ c) = true -> tx_err _ (txs _ _ c) = true -> kind cm = KExec ->
    DISPATCH c cm = mkCore _ _ (st _ _ c) (tx_idle cmd) (outp _ _ c ++ [R_EXECABORT]).
  Proof. intros Ht He Hk. unfold dispatch. now rewrite Ht, Hk, He. Qed.

  Lemma exec_leaves_idle (c : core) cm :
    in_tx _ (txs _ _ c) = true -> kind cm = KExec -> txs _ _ (DISPATCH c cm) = tx_idle cmd.
  Proof.
    intros Ht Hk. unfold dispatch. rewrite Ht, Hk. destruct (tx_err cmd (txs St cmd c)); [reflexivity|].
    destruct (watch_unchanged St cmd exec cmd_get (st St cmd c) (watched cmd (txs St cmd c))) as [s1 b].
    destruct b; [|reflexivity]. now destruct (RQ s1 (queue cmd (txs St cmd c))).
  Qed.

  Lemma discard_resets (c : core) cm :
    in_tx _ (txs _ _ c) = true -> kind cm = KDiscard ->
    DISPATCH c cm = mkCore _ _ (st _ _ c) (tx_idle cmd) (outp _ _ c ++ [R_OK]).
  Proof. intros Ht Hk. unfold dispatch. now rewrite Ht, Hk. Qed.

  Lemma nested_multi_rejected (c : core) cm :
    in_tx _ (txs _ _ c) = true -> kind cm = KMulti ->
    DISPATCH c cm = mkCore _ _ (st _ _ c) (txs _ _ c) (outp _ _ c ++ [R_NESTED]).
  Proof. intros Ht Hk. unfold dispatch. now rewrite Ht, Hk. Qed.

  Lemma watch_in_multi_rejected (c : core) cm ks :
    in_tx _ (txs _ _ c) = true -> kind cm = KWatch ks ->
    DISPATCH c cm = mkCore _ _ (st _ _ c) (txs _ _ c) (outp _ _ c ++ [R_WATCH_IN_MULTI]).
  Proof. intros Ht Hk. unfold dispatch. now rewrite Ht, Hk. Qed.

  Hypothesis get_read_only : forall s k, fst (exec s (cmd_get k)) = s.

  Lemma snapshot_ro : forall ks s,
    snapshot St cmd exec cmd_get s ks = (s, map (fun k => (k, GETR s k)) ks).
  Proof.
    induction ks as [|k ks IH]; intros s; [reflexivity|]. cbn [snapshot map]. unfold get_reply.
    pose proof (get_read_only s k) as H. destruct (exec s (cmd_get k)) as [s1 r]. cbn in H. subst s1.
    rewrite IH. reflexivity.
  Qed.

  Lemma watch_unchanged_ro : forall w s,
    watch_unchanged St cmd exec cmd_get s w =
    (s, forallb (fun p => resp_eqb (GETR s (fst p)) (snd p)) w).
  Proof.
    induction w as [|[k old] w IH]; intros s; [reflexivity|]. cbn [watch_unchanged forallb fst snd].
    unfold get_reply at 1. pose proof (get_read_only s k) as H.
    destruct (exec s (cmd_get k)) as [s1 r]. cbn in H. subst s1. cbn [snd].
    destruct (resp_eqb r old); [apply IH|reflexivity].
  Qed.

  Lemma watch_iff_get_reply_changed (c : core) cm :
    in_tx _ (txs _ _ c) = true -> tx_err _ (txs _ _ c) = false -> kind cm = KExec ->
    let c' := DISPATCH c cm in
    let s := st _ _ c in
    let q := queue _ (txs _ _ c) in
    ((exists k old, In (k, old) (watched _ (txs _ _ c)) /\ GETR s k <> old) ->
       c' = mkCore _ _ s (tx_idle cmd) (outp _ _ c ++ [RNilArr])) /\
    ((forall k old, In (k, old) (watched _ (txs _ _ c)) -> GETR s k = old) ->
       c' = mkCore _ _ (fst (RQ s q)) (tx_idle cmd) (outp _ _ c ++ [RArr (snd (RQ s q))])).
  Proof.
    intros Ht He Hk. cbv zeta. split.
    - intros (k & old & Hin & Hne). apply exec_watch_failed; auto.
      rewrite watch_unchanged_ro. f_equal.
      destruct (forallb _ _) eqn:E; [|reflexivity]. rewrite forallb_forall in E.
      specialize (E _ Hin). cbn in E. apply resp_eqb_spec in E. contradiction.
    - intros Hall. apply exec_applies; auto. rewrite watch_unchanged_ro. f_equal.
      apply forallb_forall. intros [k old] Hin. cbn. apply resp_eqb_spec. now apply Hall.
  Qed.

  Lemma step2_B_txa y v : txa _ _ (STEP2 y false v) = txa _ _ y /\ outa _ _ (STEP2 y false v) = outa _ _ y.
  Proof. split; reflexivity. Qed.

  (* while A queues, whatever B does in between: A's transaction state is its queue so far *)
  Lemma run2_queueing : forall sched y,
    in_tx _ (txa _ _ y) = true ->
    Forall (fun p => fst p = true -> exists cm, decode_cmd (snd p) = inl cm /\ queueable (kind cm)) sched ->
    txa _ _ (RUN2 y sched) =
      mkTx _ true (queue _ (txa _ _ y) ++ ACMDS sched) (tx_err _ (txa _ _ y)) (watched _ (txa _ _ y)) /\
    outa _ _ (RUN2 y sched) = outa _ _ y ++ map (fun _ => R_QUEUED) (ACMDS sched).
  Proof.
    induction sched as [|[w v] sched IH]; intros y Ht H.
    - unfold run2, a_cmds. cbn. rewrite !app_nil_r. split; [|reflexivity].
      destruct (txa St cmd y); cbn in *. now subst.
    - apply Forall_cons_iff in H. destruct H as [Hp Hl]. unfold run2 in *. cbn [fold_left fst snd] in *.
      destruct w.
      + destruct (Hp eq_refl) as (cm & Hd & Hq). cbn [snd] in Hd.
        assert (Hstep : STEP2 y true v =
                  mkSys _ _ (sst _ _ y)
                        (mkTx _ true (queue _ (txa _ _ y) ++ [cm]) (tx_err _ (txa _ _ y)) (watched _ (txa _ _ y)))
                        (txb _ _ y) (outa _ _ y ++ [R_QUEUED]) (outb _ _ y)).
        { unfold step2. rewrite (handle_frame_cmd _ _ _ Hd), queued_reply; [reflexivity|exact Ht|exact Hq]. }
        destruct (IH (STEP2 y true v)) as [H1 H2]; [rewrite Hstep; reflexivity|exact Hl|].
        rewrite H1, H2, Hstep. cbn [txa outa queue tx_err watched].
        unfold a_cmds. cbn [flat_map fst snd]. rewrite Hd. cbn [app map]. rewrite <- !app_assoc. split; reflexivity.
      + destruct (IH (STEP2 y false v)) as [H1 H2]; [exact Ht|exact Hl|].
        rewrite H1, H2. unfold a_cmds. cbn [flat_map fst snd app]. split; reflexivity.
  Qed.

  Notation WSNAPS := (watch_snaps St cmd decode_cmd exec kind cmd_get stub_reply).

  (* while A only sends WATCH commands (and B anything): A's watch list grows by exactly the
     snapshots taken, each at its own instant; nothing already recorded is replaced *)
  Lemma run2_watching : forall sched y,
    in_tx _ (txa _ _ y) = false ->
    Forall (fun p => fst p = true -> exists cm ks, decode_cmd (snd p) = inl cm /\ kind cm = KWatch ks) sched ->
    txa _ _ (RUN2 y sched) =
      mkTx _ false (queue _ (txa _ _ y)) (tx_err _ (txa _ _ y)) (watched _ (txa _ _ y) ++ WSNAPS y sched).
  Proof.
    induction sched as [|[w v] sched IH]; intros y Ht H.
    - unfold run2. cbn. rewrite app_nil_r. destruct (txa St cmd y); cbn in *. now subst.
    - apply Forall_cons_iff in H. destruct H as [Hp Hl]. unfold run2 in *. cbn [fold_left fst snd watch_snaps] in *.
      destruct w.
      + destruct (Hp eq_refl) as (cm & ks & Hd & Hk). cbn [snd] in Hd. rewrite Hd, Hk.
        assert (Hstep : txa _ _ (STEP2 y true v) =
                  mkTx _ false (queue _ (txa _ _ y)) (tx_err _ (txa _ _ y))
                       (watched _ (txa _ _ y) ++ map (fun k => (k, GETR (sst _ _ y) k)) ks)).
        { unfold step2. rewrite (handle_frame_cmd _ _ _ Hd). cbn [txa]. unfold dispatch. cbn [txs st]. rewrite Ht, Hk.
          rewrite snapshot_ro. reflexivity. }
        rewrite IH; [|rewrite Hstep; reflexivity|exact Hl].
        rewrite Hstep. cbn [queue tx_err watched]. now rewrite <- app_assoc.
      + rewrite IH; [|exact Ht|exact Hl]. reflexivity.
  Qed.

  Lemma step2_multi y v cm : decode_cmd v = inl cm -> kind cm = KMulti -> in_tx _ (txa _ _ y) = false ->
    txa _ _ (STEP2 y true v) = mkTx _ true [] false (watched _ (txa _ _ y)).
  Proof.
    intros Hd Hk Ht. unfold step2. rewrite (handle_frame_cmd _ _ _ Hd). cbn [txa]. unfold dispatch. cbn [txs].
    now rewrite Ht, Hk.
  Qed.

  (* how A's EXEC, taking y to y', is decided by the snapshots [snaps] A's transaction holds, given its
     queue [q]: some snapshot differs from the key's GET reply now - nil, nothing applied; none differs -
     the queue is applied consecutively, one result per queued command; A is idle afterwards *)
  Definition exec_decides (y y' : sys St cmd) (snaps : list (bytes * resp)) (q : list cmd) : Prop :=
    txa _ _ y' = tx_idle cmd /\
    ((exists k old, In (k, old) snaps /\ GETR (sst _ _ y) k <> old) ->
       sst _ _ y' = sst _ _ y /\ outa _ _ y' = outa _ _ y ++ [RNilArr]) /\
    ((forall k old, In (k, old) snaps -> GETR (sst _ _ y) k = old) ->
       sst _ _ y' = fst (RQ (sst _ _ y) q) /\ outa _ _ y' = outa _ _ y ++ [RArr (snd (RQ (sst _ _ y) q))] /\
       length (snd (RQ (sst _ _ y) q)) = length q).

  Lemma step2_exec y v cm q snaps : decode_cmd v = inl cm -> kind cm = KExec ->
    txa _ _ y = mkTx _ true q false snaps -> exec_decides y (STEP2 y true v) snaps q.
  Proof.
    intros Hd Hk Ht.
    pose proof (watch_iff_get_reply_changed (mkCore _ _ (sst _ _ y) (txa _ _ y) (outa _ _ y)) cm) as Hx.
    unfold exec_decides, step2. rewrite (handle_frame_cmd _ _ _ Hd). cbn [txa sst outa]. rewrite Ht in *.
    destruct (Hx eq_refl eq_refl Hk) as [Hx1 Hx2]. cbn [st txs outp queue watched] in Hx1, Hx2.
    split; [|split].
    - apply exec_leaves_idle; [reflexivity|exact Hk].
    - intros Hex. now rewrite (Hx1 Hex).
    - intros Hall. rewrite (Hx2 Hall). repeat split. apply run_queue_length.
  Qed.

  Theorem multi_watch_exec_two_clients y vm cmu ve ce sched0 sched2 :
    txa _ _ y = tx_idle cmd ->
    Forall (fun p => fst p = true -> exists cm ks, decode_cmd (snd p) = inl cm /\ kind cm = KWatch ks) sched0 ->
    decode_cmd vm = inl cmu -> kind cmu = KMulti ->
    decode_cmd ve = inl ce -> kind ce = KExec ->
    Forall (fun p => fst p = true -> exists cm, decode_cmd (snd p) = inl cm /\ queueable (kind cm)) sched2 ->
    let y4 := RUN2 (STEP2 (RUN2 y sched0) true vm) sched2 in
    exec_decides y4 (STEP2 y4 true ve) (WSNAPS y sched0) (ACMDS sched2).
  Proof.
    intros Hidle HW Hdm Hkm Hde Hke HQ y4. apply (step2_exec y4 ve ce _ _ Hde Hke).
    assert (H2 : txa _ _ (RUN2 y sched0) = mkTx _ false [] false (WSNAPS y sched0)).
    { rewrite run2_watching, Hidle by (rewrite ?Hidle; trivial). reflexivity. }
    assert (H3 : txa _ _ (STEP2 (RUN2 y sched0) true vm) = mkTx _ true [] false (WSNAPS y sched0)).
    { rewrite (step2_multi _ vm cmu Hdm Hkm), H2 by now rewrite H2. reflexivity. }
    destruct (run2_queueing sched2 (STEP2 (RUN2 y sched0) true vm)) as [H4 _]; [now rewrite H3|exact HQ|].
    unfold y4. now rewrite H4, H3.
  Qed.

  Lemma watch_snaps_B_only : forall sched y, Forall (fun p => fst p = false) sched -> WSNAPS y sched = [].
  Proof.
    induction sched as [|[w v] sched IH]; intros y H; [reflexivity|].
    apply Forall_cons_iff in H. destruct H as [Hp Hl]. cbn in Hp. subst w. cbn [watch_snaps app]. now apply IH.
  Qed.

  Theorem watch_multi_exec_two_clients y ks vw cw vm cmu ve ce sched1 sched2 :
    txa _ _ y = tx_idle cmd ->
    decode_cmd vw = inl cw -> kind cw = KWatch ks ->
    decode_cmd vm = inl cmu -> kind cmu = KMulti ->
    decode_cmd ve = inl ce -> kind ce = KExec ->
    Forall (fun p => fst p = false) sched1 ->
    Forall (fun p => fst p = true -> exists cm, decode_cmd (snd p) = inl cm /\ queueable (kind cm)) sched2 ->
    let y1 := STEP2 y true vw in
    let y2 := RUN2 y1 sched1 in
    let y3 := STEP2 y2 true vm in
    let y4 := RUN2 y3 sched2 in
    let y5 := STEP2 y4 true ve in
    let q := ACMDS sched2 in
    txa _ _ y5 = tx_idle cmd /\
    ((exists k, In k ks /\ GETR (sst _ _ y4) k <> GETR (sst _ _ y) k) ->
       sst _ _ y5 = sst _ _ y4 /\ outa _ _ y5 = outa _ _ y4 ++ [RNilArr]) /\
    ((forall k, In k ks -> GETR (sst _ _ y4) k = GETR (sst _ _ y) k) ->
       sst _ _ y5 = fst (RQ (sst _ _ y4) q) /\ outa _ _ y5 = outa _ _ y4 ++ [RArr (snd (RQ (sst _ _ y4) q))] /\
       length (snd (RQ (sst _ _ y4) q)) = length q).
  Proof.
    intros Hidle Hdw Hkw Hdm Hkm Hde Hke HB HQ.
    destruct (multi_watch_exec_two_clients y vm cmu ve ce ((true, vw) :: sched1) sched2) as (H1 & H2 & H3);
      try assumption.
    { constructor; [intros _; cbn [snd]; eauto|].
      eapply Forall_impl; [|exact HB]. cbn beta. intros p Hf Ht. congruence. }
    cbn [watch_snaps] in H2, H3. rewrite Hdw, Hkw, (watch_snaps_B_only sched1 _ HB), app_nil_r in H2, H3.
    split; [exact H1|]. split.
    - intros (k & Hin & Hne). apply H2. exists k, (GETR (sst _ _ y) k). split; [|exact Hne].
      apply in_map_iff. eauto.
    - intros Hall. apply H3. intros k old Hin. apply in_map_iff in Hin. destruct Hin as (k' & Heq & Hin).
      inversion Heq; subst. now apply Hall.
  Qed.
End Tx.

(* the backend is read off the statement to be proved *)
Arguments queued_no_effect {_ _ _ _ _ _ _}.
Arguments queue_time_error_marks {_ _ _ _ _ _ _}.
Arguments multi_watch_exec_two_clients {_ _ _ _ _ _ _}.
Arguments watch_multi_exec_two_clients {_ _ _ _ _ _ _}.
Arguments queued_reply {_ _ _ _ _ _}.
Arguments exec_applies {_ _ _ _ _ _}.
Arguments exec_watch_failed {_ _ _ _ _ _}.
Arguments exec_aborts {_ _ _ _ _ _}.
Arguments discard_resets {_ _ _ _ _ _}.
Arguments nested_multi_rejected {_ _ _ _ _ _}.
Arguments watch_in_multi_rejected {_ _ _ _ _ _}.
Arguments run_queue_eq_twin {_ _ _ _ _ _}.
Arguments watch_iff_get_reply_changed {_ _ _ _ _ _}.
Arguments run_queue_length {_ _ _}.
Arguments run_queue_snoc {_ _ _}.

Section XTx.
  Variable St : Type.
  Variable cmd : Type.
  Variable V : Type.
  Variable exec_plain : St -> cmd -> St * resp.
  Variable kind : cmd -> ckind.
  Variable read_key : St -> bytes -> V.
  Variable veqb : V -> V -> bool.

  Notation XSTEP := (x_step St cmd V exec_plain kind read_key veqb).
  Notation XRUN := (x_run St cmd exec_plain kind).
  Notation XWATCH := (x_watch St V read_key).
  Notation XVIOL := (x_violated St V read_key veqb).
  Notation xstate := (xstate St cmd V).

  Lemma x_queued_no_effect (x : xstate) c : x_in _ _ _ x = true -> kind c <> KExec ->
    x_st _ _ _ (fst (XSTEP x c)) = x_st _ _ _ x.
  Proof.
    intros Hi Hk. unfold x_step. rewrite Hi. destruct (kind c); try reflexivity. contradiction.
  Qed.

  Lemma x_queued_reply (x : xstate) c : x_in _ _ _ x = true ->
    kind c <> KExec -> kind c <> KDiscard -> kind c <> KMulti -> (forall ks, kind c <> KWatch ks) ->
    XSTEP x c = (mkX _ _ _ (x_st _ _ _ x) true (x_queue _ _ _ x ++ [c]) (x_watched _ _ _ x), RSimple (str "QUEUED")).
  Proof.
    intros Hi H1 H2 H3 H4. unfold x_step. rewrite Hi.
    destruct (kind c) eqn:E; try reflexivity; try contradiction. exfalso. exact (H4 keys eq_refl).
  Qed.

  Lemma x_run_eq : forall q s, XRUN s q = run_queue St cmd (x_exec1 St cmd exec_plain kind) s q.
  Proof.
    induction q as [|c q IH]; intros s; [reflexivity|]. cbn [x_run run_queue].
    destruct (x_exec1 St cmd exec_plain kind s c) as [s1 r]. now rewrite IH.
  Qed.

  Lemma x_run_length q s : length (snd (XRUN s q)) = length q.
  Proof. rewrite x_run_eq. apply run_queue_length. Qed.

  Lemma x_run_snoc q s c :
    XRUN s (q ++ [c]) =
    (fst (x_exec1 St cmd exec_plain kind (fst (XRUN s q)) c),
     snd (XRUN s q) ++ [snd (x_exec1 St cmd exec_plain kind (fst (XRUN s q)) c)]).
  Proof. rewrite !x_run_eq. apply run_queue_snoc. Qed.

  Lemma x_discard (x : xstate) c : x_in _ _ _ x = true -> kind c = KDiscard ->
    XSTEP x c = (mkX _ _ _ (x_st _ _ _ x) false [] [], RSimple (str "OK")).
  Proof. intros Hi Hk. unfold x_step. now rewrite Hi, Hk. Qed.

  Lemma x_violated_iff s w :
    XVIOL s w = true <-> exists k old, In (k, old) w /\ veqb (read_key s k) old = false.
  Proof.
    unfold x_violated. rewrite existsb_exists. split.
    - intros ([k old] & Hin & H). cbn in H. apply negb_true_iff in H. eauto.
    - intros (k & old & Hin & H). exists (k, old). split; [exact Hin|]. cbn. now rewrite H.
  Qed.

  Lemma x_watch_keeps : forall ks s w k v, In (k, v) w -> In (k, v) (XWATCH s w ks).
  Proof. intros ks s w k v H. unfold x_watch. apply in_or_app. now left. Qed.

  Lemma x_watch_fresh : forall ks s w k, In k ks -> In (k, read_key s k) (XWATCH s w ks).
  Proof.
    intros ks s w k H. unfold x_watch. apply in_or_app. right.
    apply in_map_iff. exists k. split; [reflexivity|exact H].
  Qed.

  Lemma x_step_keeps_watch (x : xstate) c k v :
    (x_in _ _ _ x = false -> kind c <> KUnwatch) ->
    (x_in _ _ _ x = true -> kind c <> KExec /\ kind c <> KDiscard) ->
    In (k, v) (x_watched _ _ _ x) -> In (k, v) (x_watched _ _ _ (fst (XSTEP x c))).
  Proof.
    intros H1 H2 Hin. unfold x_step. destruct (x_in St cmd V x) eqn:Ei.
    - destruct (H2 eq_refl) as [Ha Hb]. destruct (kind c); try exact Hin; contradiction.
    - specialize (H1 eq_refl). destruct (kind c); cbn [fst x_watched]; try exact Hin; try contradiction;
        [now apply x_watch_keeps|destruct (exec_plain (x_st St cmd V x) c); exact Hin..].
  Qed.

  Theorem x_exec_nil_iff (x : xstate) c : x_in _ _ _ x = true -> kind c = KExec ->
    ((exists k old, In (k, old) (x_watched _ _ _ x) /\ veqb (read_key (x_st _ _ _ x) k) old = false) ->
       XSTEP x c = (mkX _ _ _ (x_st _ _ _ x) false [] [], RNilBulk)) /\
    ((forall k old, In (k, old) (x_watched _ _ _ x) -> veqb (read_key (x_st _ _ _ x) k) old = true) ->
       XSTEP x c = (mkX _ _ _ (fst (XRUN (x_st _ _ _ x) (x_queue _ _ _ x))) false [] [],
                    RArr (snd (XRUN (x_st _ _ _ x) (x_queue _ _ _ x)))) /\
       length (snd (XRUN (x_st _ _ _ x) (x_queue _ _ _ x))) = length (x_queue _ _ _ x)).
  Proof.
    intros Hi Hk. unfold x_step. rewrite Hi, Hk. split.
    - intros H. apply x_violated_iff in H. now rewrite H.
    - intros H. split; [|apply x_run_length].
      destruct (XVIOL (x_st St cmd V x) (x_watched St cmd V x)) eqn:E;
        [|now destruct (XRUN (x_st St cmd V x) (x_queue St cmd V x))].
      apply x_violated_iff in E. destruct E as (k & old & Hin & Hf). rewrite (H k old Hin) in Hf. discriminate.
  Qed.
End XTx.

Arguments x_queued_no_effect {_ _ _ _ _ _ _}.
Arguments x_queued_reply {_ _ _ _ _ _ _}.
Arguments x_exec_nil_iff {_ _ _ _ _ _ _}.
Arguments x_discard {_ _ _ _ _ _ _}.
Arguments x_step_keeps_watch {_ _ _ _ _ _ _}.
Arguments x_run_snoc {_ _ _ _}.
Arguments x_watch_fresh {_ _ _}.
Arguments x_watch_keeps {_ _ _}.

Lemma mbatch_get_seq : forall ks s, mbatch_get s ks = seq_gets _ mfast_get s ks.
Proof.
  induction ks as [|k ks IH]; intros s; [reflexivity|]. cbn [mbatch_get seq_gets].
  destruct (mfast_get s k) as [s1 r]. now rewrite IH.
Qed.
Lemma mbatch_set_seq : forall ps s, mbatch_set s ps = seq_sets _ mfast_set s ps.
Proof.
  induction ps as [|[k v] ps IH]; intros s; [reflexivity|]. cbn [mbatch_set seq_sets].
  destruct (mfast_set s k v) as [s1 r]. now rewrite IH.
Qed.

Lemma mini_backend_ok :
  backend_ok mutf8_ok mstate mcmd mdecode mexec mfast_get mfast_set mbatch_get mbatch_set
             mkind CGet CSet.
Proof.
  refine (conj _ (conj _ (conj _ (conj _ (conj _ (conj _ (conj _ _))))))).
  - intros nm k [-> | ->] _; reflexivity.
  - intros nm k v [-> | ->] _; reflexivity.
  - reflexivity.
  - reflexivity.
  - reflexivity.
  - reflexivity.
  - intros s ks. apply mbatch_get_seq.
  - intros s ps. apply mbatch_set_seq.
Qed.

Lemma mexec_get_read_only : forall (s : mstate) k, fst (mexec s (CGet k)) = s.
Proof. intros s k. cbn [mexec]. destruct (vget s k) as [[]|]; reflexivity. Qed.

Lemma get_reply_vs_value sW sE k : nonstring_at_both sW sE k = false ->
  (mget_reply sW k = mget_reply sE k <-> value_of sW k = value_of sE k).
Proof.
  unfold nonstring_at_both, holds_nonstring, mget_reply, get_reply, value_of. cbn [mexec].
  destruct (vget sW k) as [[x|x|x|x|x]|]; destruct (vget sE k) as [[z|z|z|z|z]|]; cbn [snd andb];
    intros H; try discriminate H; split; intros E; try discriminate E; try reflexivity; try congruence.
Qed.

Section MiniTwoClients.
  Variables (y : sys mstate mcmd) (ks : list bytes) (vw vm ve : resp)
            (sched1 sched2 : list (bool * resp)).
  Hypothesis Hidle : txa _ _ y = tx_idle mcmd.
  Hypothesis Hw : mdecode vw = inl (CWatch ks).
  Hypothesis Hm : mdecode vm = inl CMulti.
  Hypothesis He : mdecode ve = inl CExec.
  Hypothesis HB : Forall (fun p => fst p = false) sched1.
  Hypothesis HQ : Forall (fun p => fst p = true -> exists cm, mdecode (snd p) = inl cm /\ queueable (mkind cm)) sched2.

  Let y1 := mstep2 y true vw.
  Let y2 := mrun2 y1 sched1.
  Let y3 := mstep2 y2 true vm.
  Let y4 := mrun2 y3 sched2.
  Let y5 := mstep2 y4 true ve.
  Let q := a_cmds mcmd mdecode sched2.

  Lemma mini_watch_iff_changed :
    (forall k, In k ks -> nonstring_at_both (sst _ _ y) (sst _ _ y4) k = false) ->
    ((exists k, In k ks /\ value_of (sst _ _ y4) k <> value_of (sst _ _ y) k) ->
       sst _ _ y5 = sst _ _ y4 /\ outa _ _ y5 = outa _ _ y4 ++ [RNilArr]) /\
    ((forall k, In k ks -> value_of (sst _ _ y4) k = value_of (sst _ _ y) k) ->
       sst _ _ y5 = fst (run_queue _ _ mexec (sst _ _ y4) q) /\
       outa _ _ y5 = outa _ _ y4 ++ [RArr (snd (run_queue _ _ mexec (sst _ _ y4) q))] /\
       length (snd (run_queue _ _ mexec (sst _ _ y4) q)) = length q).
  Proof.
    intros Hcls.
    destruct (@watch_multi_exec_two_clients _ _ mdecode mexec mkind CGet mstub_reply mexec_get_read_only
                y ks vw (CWatch ks) vm CMulti ve CExec sched1 sched2
                Hidle Hw eq_refl Hm eq_refl He eq_refl HB HQ) as (_ & H1 & H2).
    split.
    - intros (k & Hin & Hne). apply H1. exists k. split; [exact Hin|].
      intros E. apply Hne. symmetry. apply (get_reply_vs_value _ _ k (Hcls k Hin)). symmetry. exact E.
    - intros Hall. apply H2. intros k Hin. symmetry. apply (get_reply_vs_value _ _ k (Hcls k Hin)).
      symmetry. now apply Hall.
  Qed.
End MiniTwoClients.
