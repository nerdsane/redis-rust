(* C16: laws of the reference grammar (Model/CmdGrammar.v). *)
From Coq Require Import NArith ZArith List String Bool Lia.
From RV Require Lib.Bytes.
From RV Require Import Lib.Hex Model.CmdGrammar.
Import ListNotations.
Local Open Scope bool_scope.

Lemma nodupb_NoDup l : nodupb l = true -> NoDup l.
Proof.
  induction l as [|x r IH]; cbn; intros H; constructor.
  - apply andb_true_iff in H as [H _]. apply negb_true_iff in H.
    intros HI. assert (existsb (bytes_eqb x) r = true); [|congruence].
    apply existsb_exists. exists x. split; [assumption|apply Bytes.bytes_eqb_refl].
  - apply andb_true_iff in H as [_ H]. auto.
Qed.

Lemma grammar_names_distinct : nodupb (names grammar) = true.
Proof. vm_compute. reflexivity. Qed.
Lemma subtables_names_distinct :
  forallb (fun t => nodupb (names t))
          [config_tbl; acl_tbl; script_tbl; function_tbl; client_tbl; object_tbl; debug_tbl] = true.
Proof. vm_compute. reflexivity. Qed.
Lemma grammar_NoDup : NoDup (names grammar).
Proof. exact (nodupb_NoDup _ grammar_names_distinct). Qed.
Lemma subtables_NoDup : Forall (fun ct => NoDup (names (snd ct))) subtables.
Proof.
  apply Forall_forall. intros ct H. apply nodupb_NoDup.
  pose proof subtables_names_distinct as HN. rewrite forallb_forall in HN.
  exact (HN _ (in_map snd _ _ H)).
Qed.

Lemma lookup_In {A} n (t : list (bytes * A)) r : lookup n t = Some r -> In (n, r) t.
Proof.
  induction t as [|[m a] t IH]; cbn; [discriminate|].
  destruct (bytes_eqb n m) eqn:E.
  - intros [= ->]. apply Bytes.bytes_eqb_eq in E. subst. now left.
  - intros H. right. auto.
Qed.
Lemma lookup_None {A} n (t : list (bytes * A)) : lookup n t = None <-> ~ In n (names t).
Proof.
  induction t as [|[m a] t IH]; cbn.
  - split; auto.
  - destruct (bytes_eqb n m) eqn:E.
    + apply Bytes.bytes_eqb_eq in E. intuition congruence.
    + apply Bytes.bytes_eqb_neq in E. rewrite IH. intuition congruence.
Qed.
Lemma lookup_unique {A} n (t : list (bytes * A)) r :
  NoDup (names t) -> In (n, r) t -> lookup n t = Some r.
Proof.
  induction t as [|[m a] t IH]; cbn; [contradiction|].
  intros ND [H|H].
  - injection H as -> ->. now rewrite Bytes.bytes_eqb_refl.
  - inversion ND as [|? ? Hn ND']; subst.
    destruct (bytes_eqb n m) eqn:E.
    + apply Bytes.bytes_eqb_eq in E. subst. exfalso. apply Hn.
      change m with (fst (m, r)). now apply in_map.
    + auto.
Qed.
Lemma grammar_lookup n r : In (n, r) grammar -> lookup n grammar = Some r.
Proof. apply lookup_unique, grammar_NoDup. Qed.

(* From here on [grammar] is kept folded: with the 104-row table open, [cbn], [unfold parse_frame]
   and unification wander into its rows (and leave larger proof terms).  It is opened only around
   the three groups of lemmas that evaluate a [lookup _ grammar] or walk the rows. *)
Local Opaque grammar.


Lemma parses_parse_frame f : parses f (parse_frame f).
Proof.
  destruct f as [[|[n| |] args]|]; cbn [parses parse_frame]; try reflexivity.
  destruct (lookup (ustr n) grammar) eqn:E.
  - left. exists r. split; [now apply lookup_In|reflexivity].
  - right. split; [now apply lookup_None|reflexivity].
Qed.
Lemma parses_functional f r : parses f r -> r = parse_frame f.
Proof.
  destruct f as [[|[n| |] args]|]; cbn [parses parse_frame]; try (intros ->; reflexivity).
  intros [[rl [HI ->]]|[HN ->]].
  - now rewrite (grammar_lookup _ _ HI).
  - apply lookup_None in HN. now rewrite HN.
Qed.
Theorem parse_deterministic f r1 r2 : parses f r1 -> parses f r2 -> r1 = r2.
Proof. intros H1 H2. apply parses_functional in H1, H2. congruence. Qed.

Theorem arity_error n rl args name :
  In (name, rl) grammar -> ustr n = name -> arity_ok rl (List.length args) = false ->
  parse_frame (Some (EBulk n :: args)) = PErr (arity_text rl).
Proof.
  intros HI <- HA. cbn [parse_frame]. rewrite (grammar_lookup _ _ HI). unfold run_rule. now rewrite HA.
Qed.

(* [ustr], the upper-cased decoding, also identifies the non-ASCII spellings that str::to_uppercase
   maps to ASCII *)
Theorem name_only_through_ustr n n' args :
  ustr n = ustr n' ->
  parse_frame (Some (EBulk n :: args)) = parse_frame (Some (EBulk n' :: args)).
Proof. intros H. cbn [parse_frame]. now rewrite H. Qed.

(* [ustr] absorbs [map up1]: up1 moves a byte only inside ASCII, where decoding copies it and
   upper-casing applies up1 itself *)

Lemma up1_cases x : (up1 x = x /\ ~ (97 <= x <= 122)%N) \/ ((97 <= x <= 122)%N /\ up1 x = (x - 32)%N).
Proof.
  unfold up1. destruct (N.leb_spec 97 x); destruct (N.leb_spec x 122); cbn [andb]; try (left; split; [reflexivity|lia]).
  right. split; [lia|reflexivity].
Qed.
Lemma width_up1 x : width (up1 x) = width x.
Proof.
  destruct (up1_cases x) as [[-> _]|[H ->]]; [reflexivity|].
  unfold width. destruct (N.ltb_spec (x - 32) 128); [|lia]. destruct (N.ltb_spec x 128); [reflexivity|lia].
Qed.
Lemma cont_up1 x : cont (up1 x) = cont x.
Proof.
  destruct (up1_cases x) as [[-> _]|[H ->]]; [reflexivity|].
  unfold cont. destruct (N.leb_spec 128 (x - 32)); [lia|]. destruct (N.leb_spec 128 x); [lia|reflexivity].
Qed.
Lemma up1_fixes_lead x : width x <> 1%nat -> up1 x = x.
Proof.
  intros H. destruct (up1_cases x) as [[E _]|[R _]]; [exact E|].
  exfalso. apply H. unfold width. destruct (N.ltb_spec x 128); [reflexivity|lia].
Qed.
Lemma second_ok_up1 x c : second_ok x (up1 c) = second_ok x c.
Proof.
  destruct (up1_cases c) as [[-> _]|[H ->]]; [reflexivity|].
  assert (A1 : forall k, (128 <= k)%N -> (k <=? c)%N = false) by (intros; apply N.leb_gt; lia).
  assert (A2 : forall k, (128 <= k)%N -> (k <=? c - 32)%N = false) by (intros; apply N.leb_gt; lia).
  unfold second_ok, cont. rewrite !A1, !A2 by lia. reflexivity.
Qed.

(* In the proof below [lossy] looks at the next byte [c] of what is left, [l]: there is none; or
   [c] passes the test, which [up1] does not alter (equation [E]); or decoding gives up, emits
   U+FFFD and resumes at [c] (fact [Hbad]). *)
Local Ltac next_byte l c l' E Hbad :=
  destruct l as [|c l']; [reflexivity|]; cbn [map List.length] in *; rewrite E;
  match goal with |- (if ?t then _ else _) = _ => destruct t end;
  [|apply (Hbad (c :: l')); cbn [List.length]; lia].
Lemma lossy_up1 b : lossy (map up1 b) = map up1 (lossy b).
Proof.
  (* a step of [lossy] goes on with a suffix up to four bytes shorter *)
  enough (G : forall n b, (List.length b <= n)%nat -> lossy (map up1 b) = map up1 (lossy b))
    by exact (G _ b (le_n _)).
  clear b. induction n as [|n IH]; intros [|x r] H; try reflexivity; cbn [List.length] in H; [lia|].
  assert (Hbad : forall s, (List.length s <= n)%nat -> FFFD ++ lossy (map up1 s) = map up1 (FFFD ++ lossy s))
    by (intros s Hs; now rewrite map_app, IH).
  cbn [map lossy]. rewrite width_up1.
  destruct (Nat.eq_dec (width x) 1) as [W|W]; [rewrite W; cbn [map]; now rewrite IH by lia|].
  pose proof (up1_fixes_lead x W) as Ex. rewrite Ex.
  destruct (width x) as [|[|[|[|[|w]]]]]; try (apply Hbad; lia); [congruence| | |].
  - next_byte r c1 r1 cont_up1 Hbad. cbn [map]. now rewrite IH, Ex by lia.
  - next_byte r c1 r1 second_ok_up1 Hbad. next_byte r1 c2 r2 cont_up1 Hbad.
    cbn [map]. now rewrite IH, Ex by lia.
  - next_byte r c1 r1 second_ok_up1 Hbad. next_byte r1 c2 r2 cont_up1 Hbad. next_byte r2 c3 r3 cont_up1 Hbad.
    cbn [map]. now rewrite IH, Ex by lia.
Qed.

Lemma up1_idem x : up1 (up1 x) = up1 x.
Proof.
  destruct (up1_cases x) as [[E _]|[H ->]]; [now rewrite !E|].
  unfold up1. destruct (N.leb_spec 97 (x - 32)); [lia|reflexivity].
Qed.
Lemma up1_eqb_big x v : (128 <= v)%N -> (up1 x =? v)%N = (x =? v)%N.
Proof.
  intros Hv. destruct (up1_cases x) as [[-> _]|[H ->]]; [reflexivity|].
  destruct (N.eqb_spec (x - 32) v); destruct (N.eqb_spec x v); try reflexivity; lia.
Qed.
Lemma upper_unfold x y r1 :
  upper (x :: y :: r1) =
    if ((x =? 195) && (y =? 159))%N then 83%N :: 83%N :: upper r1
    else if ((x =? 196) && (y =? 177))%N then 73%N :: upper r1
    else if ((x =? 197) && (y =? 191))%N then 83%N :: upper r1
    else if ((x =? 239) && (y =? 172))%N then
      match r1 with
      | c :: r2 => match lig c with Some w => w ++ upper r2 | None => up1 x :: upper (y :: r1) end
      | [] => up1 x :: upper (y :: r1)
      end
    else up1 x :: upper (y :: r1).
Proof. reflexivity. Qed.
Lemma upper_up1 b : upper (map up1 b) = upper b.
Proof.
  enough (G : forall n b, (List.length b <= n)%nat -> upper (map up1 b) = upper b)
    by exact (G _ b (le_n _)).
  clear b. induction n as [|n IH]; intros [|x r] H; try reflexivity; cbn [List.length] in H; [lia|].
  destruct r as [|y r1]; [cbn; now rewrite up1_idem|].
  assert (IH1 : upper (map up1 r1) = upper r1) by (apply IH; cbn [List.length] in H; lia).
  assert (IH2 : upper (map up1 (y :: r1)) = upper (y :: r1)) by (apply IH; lia).
  cbn [map] in *. rewrite !upper_unfold, !up1_eqb_big, up1_idem, IH1, IH2 by lia.
  destruct r1 as [|c r2]; [reflexivity|].
  assert (IH3 : upper (map up1 r2) = upper r2) by (apply IH; cbn [List.length] in H; lia).
  cbn [map].
  assert (HL : lig (up1 c) = lig c) by (unfold lig; rewrite !up1_eqb_big by lia; reflexivity).
  rewrite HL, IH3. reflexivity.
Qed.
Lemma ustr_up1 b : ustr (map up1 b) = ustr b.
Proof. unfold ustr. now rewrite lossy_up1, upper_up1. Qed.
Lemma case_variant_map a b : case_variant a b -> map up1 a = map up1 b.
Proof. induction 1; cbn; congruence. Qed.
Lemma case_variant_ustr a b : case_variant a b -> ustr a = ustr b.
Proof. intros H. rewrite <- (ustr_up1 a), <- (ustr_up1 b). now rewrite (case_variant_map _ _ H). Qed.
Theorem name_case_insensitive_any n n' args :
  case_variant n n' ->
  parse_frame (Some (EBulk n :: args)) = parse_frame (Some (EBulk n' :: args)).
Proof. intros H. apply name_only_through_ustr, case_variant_ustr, H. Qed.
Theorem name_case_insensitive n n' args :
  ascii n -> case_variant n n' ->
  parse_frame (Some (EBulk n :: args)) = parse_frame (Some (EBulk n' :: args)).
Proof. intros _. apply name_case_insensitive_any. Qed.

Lemma width_ascii x : (x < 128)%N -> width x = 1%nat.
Proof. intros H. unfold width. apply N.ltb_lt in H. now rewrite H. Qed.
Lemma lossy_ascii b : ascii b -> lossy b = b.
Proof.
  induction 1 as [|x r Hx Hr IH]; [reflexivity|].
  cbn [lossy]. rewrite (width_ascii _ Hx). now rewrite IH.
Qed.
Lemma upper_ascii b : ascii b -> upper b = map up1 b.
Proof.
  induction 1 as [|x r Hx Hr IH]; [reflexivity|]. destruct r as [|y r1]; [reflexivity|].
  rewrite upper_unfold, IH.
  destruct (N.eqb_spec x 195); [lia|]. destruct (N.eqb_spec x 196); [lia|].
  destruct (N.eqb_spec x 197); [lia|]. destruct (N.eqb_spec x 239); [lia|]. reflexivity.
Qed.
Lemma ustr_ascii b : ascii b -> ustr b = map up1 b.
Proof. intros H. unfold ustr. rewrite (lossy_ascii _ H). now apply upper_ascii. Qed.

Theorem lua_parse_eq_parse n rest :
  lua_supported (ustr n) = true -> lua_parse (n :: rest) = parse_cmd (n :: rest).
Proof. intros H. unfold lua_parse. now rewrite H. Qed.
Theorem lua_parse_refuses n rest :
  lua_supported (ustr n) = false ->
  lua_parse (n :: rest) = PErr (tx "ERR Unknown Redis command '" ++ ustr n ++ tx "' called from Lua").
Proof. intros H. unfold lua_parse. now rewrite H. Qed.
Lemma lua_commands_in_grammar :
  forallb (fun n => match lookup n grammar with Some _ => true | None => false end) lua_commands = true.
Proof. vm_compute. reflexivity. Qed.

Section RespInd.
  Variable P : resp -> Prop.
  Hypothesis Hs : forall s, P (RSimple_ s).
  Hypothesis He : forall s, P (RError s).
  Hypothesis Hi : forall z, P (RInt z).
  Hypothesis Hb : forall o, P (RBulk o).
  Hypothesis Hn : P (RArr None).
  Hypothesis Ha : forall l, Forall P l -> P (RArr (Some l)).
  Fixpoint resp_ind' (r : resp) : P r :=
    match r with
    | RSimple_ s => Hs s
    | RError s => He s
    | RInt z => Hi z
    | RBulk o => Hb o
    | RArr None => Hn
    | RArr (Some l) =>
        Ha l ((fix go (l : list resp) : Forall P l :=
                 match l with
                 | [] => Forall_nil P
                 | x :: t => Forall_cons x (resp_ind' x) (go t)
                 end) l)
    end.
End RespInd.

Definition go_arr : list lval -> list resp :=
  fix go (l : list lval) : list resp :=
    match l with
    | [] => []
    | LNil :: _ => []
    | x :: t => lua_to_resp x :: go t
    end.
Lemma lua_to_resp_tab o e arr :
  lua_to_resp (LTab o e arr) =
    match get_str e with
    | Some x => RError (sanitize x)
    | None => match get_str o with
              | Some s => RSimple_ (sanitize s)
              | None => RArr (Some (go_arr arr))
              end
    end.
Proof. reflexivity. Qed.
Lemma go_arr_cons x t : x <> LNil -> go_arr (x :: t) = lua_to_resp x :: go_arr t.
Proof. destruct x; try reflexivity. congruence. Qed.

Lemma conv_roundtrip_with nil_as a :
  (a = true -> lua_to_resp nil_as = RBulk None /\ nil_as <> LNil) ->
  forall r, inner_ok_with a r = true ->
            lua_to_resp (resp_to_lua_with nil_as r) = r /\ resp_to_lua_with nil_as r <> LNil.
Proof.
  intros Hnil. induction r as [s|s|z|o| |l IH] using resp_ind'; cbn [inner_ok_with resp_to_lua_with]; intros H.
  1,2: unfold text_ok in H; apply andb_true_iff in H as [H1 H2]; apply Bytes.bytes_eqb_eq in H2;
       split; [|discriminate]; rewrite lua_to_resp_tab; cbn [get_str]; now rewrite H1, H2.
  - split; [reflexivity|discriminate].
  - destruct o as [b|]; [split; [reflexivity|discriminate]|]. now apply Hnil.
  - discriminate.
  - split; [|discriminate]. rewrite lua_to_resp_tab. cbn [get_str]. do 2 f_equal.
    induction IH as [|x t Hx _ IHt]; [reflexivity|].
    apply andb_true_iff in H as [H1 H2]. destruct (Hx H1) as [E1 E2].
    cbn [map]. rewrite (go_arr_cons _ _ E2), E1. f_equal. exact (IHt H2).
Qed.

Theorem conv_roundtrip r : conv_ok r = true -> lua_to_resp (resp_to_lua r) = r.
Proof.
  intros H. assert (G : forall r, inner_ok_with false r = true -> lua_to_resp (resp_to_lua r) = r).
  { intros r0 H0. apply (conv_roundtrip_with LNil false); [discriminate|exact H0]. }
  destruct r as [| | |[b|]|]; try (apply G; exact H); reflexivity.
Qed.
Theorem conv_roundtrip_redis r :
  conv_ok_redis r = true -> lua_to_resp (resp_to_lua_redis r) = r.
Proof.
  intros H. apply (conv_roundtrip_with (LBool false) true); [|exact H].
  intros _. split; [reflexivity|discriminate].
Qed.
Theorem conv_nil_exception :
  let v := RArr (Some [RBulk (Some [97%N]); RBulk None; RBulk (Some [99%N])]) in
  lua_to_resp (resp_to_lua v) = RArr (Some [RBulk (Some [97%N])])
  /\ lua_to_resp (resp_to_lua_redis v) = v
  /\ lua_to_resp (resp_to_lua (RArr None)) = RBulk None.
Proof. repeat split. Qed.
Theorem nil_reaches_script_as_nil :
  resp_to_lua (RBulk None) = LNil /\ resp_to_lua_redis (RBulk None) = LBool false.
Proof. split; reflexivity. Qed.

(* [val r ds] is the model's [dval r ds] on a string of digits, without its test of each byte *)
Definition is_digit (c : N) : bool := ((48 <=? c) && (c <=? 57))%N.
Definition all_digits (ds : bytes) : bool := forallb is_digit ds.
Fixpoint val (r : Z) (ds : bytes) : Z :=
  match ds with [] => r | c :: t => val (10 * r + Z.of_N (c - 48)) t end.

Lemma digit_is c : is_digit c = true -> digit c = Some (Z.of_N (c - 48)).
Proof. unfold is_digit, digit. now intros ->. Qed.
Lemma is_digit_range c : is_digit c = true -> (48 <= c <= 57)%N.
Proof. unfold is_digit. intros H. apply andb_true_iff in H as [H1 H2]. apply N.leb_le in H1, H2. lia. Qed.
Lemma val_mono ds : all_digits ds = true -> forall r, (0 <= r)%Z -> (r <= val r ds)%Z.
Proof.
  induction ds as [|c t IH]; cbn [val all_digits forallb]; intros H r Hr; [lia|].
  apply andb_true_iff in H as [Hc Ht]. apply is_digit_range in Hc.
  specialize (IH Ht (10 * r + Z.of_N (c - 48))%Z). lia.
Qed.
Lemma acc_pos_val hi ds : all_digits ds = true -> forall r, (0 <= r)%Z -> (val r ds <= hi)%Z ->
  acc_pos hi r ds = IOk (val r ds).
Proof.
  induction ds as [|c t IH]; cbn [val all_digits forallb acc_pos]; intros H r Hr Hv; [reflexivity|].
  apply andb_true_iff in H as [Hc Ht]. rewrite (digit_is _ Hc).
  pose proof (is_digit_range _ Hc) as Hc'.
  pose proof (val_mono t Ht (10 * r + Z.of_N (c - 48))%Z ltac:(lia)) as Hm.
  cbv zeta. destruct (Z.gtb_spec (10 * r + Z.of_N (c - 48)) hi); [lia|].
  apply IH; auto; lia.
Qed.
Lemma acc_neg_val lo ds : all_digits ds = true -> forall r, (r <= 0)%Z -> (lo <= - val (- r) ds)%Z ->
  acc_neg lo r ds = IOk (- val (- r) ds)%Z.
Proof.
  induction ds as [|c t IH]; cbn [val all_digits forallb acc_neg]; intros H r Hr Hv.
  - f_equal. lia.
  - apply andb_true_iff in H as [Hc Ht]. rewrite (digit_is _ Hc).
    pose proof (is_digit_range _ Hc) as Hc'.
    replace (10 * - r + Z.of_N (c - 48))%Z with (- (10 * r - Z.of_N (c - 48)))%Z in * by lia.
    pose proof (val_mono t Ht (- (10 * r - Z.of_N (c - 48)))%Z ltac:(lia)) as Hm.
    cbv zeta. destruct (Z.ltb_spec (10 * r - Z.of_N (c - 48)) lo); [lia|].
    apply IH; auto; lia.
Qed.

Lemma ndigits_digits fuel : forall n acc, all_digits acc = true -> all_digits (ndigits fuel n acc) = true.
Proof.
  induction fuel as [|f IH]; cbn [ndigits]; intros n acc Ha; [exact Ha|].
  assert (Hd : all_digits ((48 + n mod 10)%N :: acc) = true).
  { cbn [all_digits forallb]. fold (all_digits acc). rewrite Ha, andb_true_r.
    unfold is_digit. pose proof (N.mod_lt n 10 ltac:(lia)) as Hm.
    remember (n mod 10)%N as m. apply andb_true_iff. split; apply N.leb_le; lia. }
  cbv zeta. destruct (n / 10 =? 0)%N; [exact Hd|]. now apply IH.
Qed.
Lemma ndigits_nonempty fuel : forall n acc, acc <> [] -> ndigits fuel n acc <> [].
Proof.
  induction fuel as [|f IH]; cbn [ndigits]; intros n acc Ha; [exact Ha|].
  cbv zeta. destruct (n / 10 =? 0)%N; [discriminate|]. apply IH. discriminate.
Qed.
Lemma ndigits_val fuel : forall n acc, (n < 2 ^ N.of_nat fuel)%N ->
  val 0 (ndigits fuel n acc) = val (Z.of_N n) acc.
Proof.
  induction fuel as [|f IH]; intros n acc Hn.
  - cbn [ndigits]. change (2 ^ N.of_nat 0)%N with 1%N in Hn. replace n with 0%N by lia. reflexivity.
  - cbn [ndigits]. cbv zeta.
    pose proof (N.div_mod n 10 ltac:(lia)) as Hdm. pose proof (N.mod_lt n 10 ltac:(lia)) as Hml.
    remember (n mod 10)%N as m. remember (n / 10)%N as q.
    destruct (N.eqb_spec q 0) as [E|E].
    + cbn [val]. f_equal. rewrite E in Hdm. lia.
    + rewrite IH.
      * cbn [val]. f_equal. lia.
      * rewrite Nat2N.inj_succ, N.pow_succ_r' in Hn. remember (2 ^ N.of_nat f)%N as pw. lia.
Qed.
Lemma ntoa_digits n : all_digits (ntoa n) = true.
Proof. apply ndigits_digits. reflexivity. Qed.
Lemma ntoa_nonempty n : ntoa n <> [].
Proof.
  unfold ntoa. cbn [ndigits]. cbv zeta. destruct (n / 10 =? 0)%N; [discriminate|].
  apply ndigits_nonempty. discriminate.
Qed.
Lemma ntoa_val n : val 0 (ntoa n) = Z.of_N n.
Proof.
  unfold ntoa. rewrite ndigits_val; [reflexivity|].
  rewrite Nat2N.inj_succ, N2Nat.id, N.pow_succ_r'. pose proof (N.size_gt n). lia.
Qed.

Lemma all_digits_ascii ds : all_digits ds = true -> ascii ds.
Proof.
  induction ds as [|c t IH]; cbn [all_digits forallb]; intros H; [constructor|].
  apply andb_true_iff in H as [H1 H2]. constructor.
  - apply is_digit_range in H1. lia.
  - apply IH. exact H2.
Qed.
Lemma itoa_ascii z : ascii (itoa z).
Proof.
  destruct z; cbn [itoa].
  - repeat constructor.
  - apply all_digits_ascii, ntoa_digits.
  - constructor; [lia|]. apply all_digits_ascii, ntoa_digits.
Qed.
Lemma lossy_itoa z : lossy (itoa z) = itoa z.
Proof. apply lossy_ascii, itoa_ascii. Qed.

Lemma map_up1_digits ds : all_digits ds = true -> map up1 ds = ds.
Proof.
  induction ds as [|c t IH]; cbn [all_digits forallb map]; intros H; [reflexivity|].
  apply andb_true_iff in H as [Hc Ht]. apply is_digit_range in Hc. rewrite (IH Ht). f_equal.
  unfold up1. destruct (N.leb_spec 97 c); [lia|reflexivity].
Qed.
Lemma nonneg_itoa_digits z : (0 <= z)%Z -> all_digits (itoa z) = true /\ itoa z <> [].
Proof.
  destruct z; cbn [itoa]; intros H; try lia.
  - split; [reflexivity|discriminate].
  - split; [apply ntoa_digits|apply ntoa_nonempty].
Qed.
Lemma head_digit_not_sign c t :
  all_digits (c :: t) = true -> (c =? 43)%N = false /\ (c =? 45)%N = false.
Proof.
  cbn [all_digits forallb]. intros H. apply andb_true_iff in H as [H _]. apply is_digit_range in H.
  split; apply N.eqb_neq; lia.
Qed.
Lemma parse_int_digits signed lo hi ds :
  ds <> [] -> all_digits ds = true -> (val 0 ds <= hi)%Z ->
  parse_int signed lo hi ds = IOk (val 0 ds).
Proof.
  intros Hne Hd Hv. destruct ds as [|c t]; [contradiction|].
  destruct (head_digit_not_sign _ _ Hd) as (E1 & E2).
  unfold parse_int. rewrite E1, E2. cbn [orb andb]. destruct t; apply acc_pos_val; auto; lia.
Qed.
Lemma parse_int_itoa signed lo hi z :
  (lo <= z <= hi)%Z -> (signed = true \/ 0 <= z)%Z ->
  parse_int signed lo hi (itoa z) = IOk z.
Proof.
  intros Hr Hs. destruct z as [|p|p]; cbn [itoa].
  - cbn. destruct (Z.gtb_spec 0 hi); [lia|reflexivity].
  - rewrite parse_int_digits.
    + now rewrite ntoa_val.
    + apply ntoa_nonempty.
    + apply ntoa_digits.
    + rewrite ntoa_val. cbn. lia.
  - destruct Hs as [->|Hs]; [|lia].
    unfold parse_int. pose proof (ntoa_nonempty (N.pos p)) as Hne.
    destruct (ntoa (N.pos p)) as [|c t] eqn:E; [contradiction|].
    cbn [N.eqb Pos.eqb andb orb]. rewrite <- E.
    rewrite (acc_neg_val lo _ (ntoa_digits _) 0%Z ltac:(lia)); cbn [Z.opp]; rewrite ntoa_val.
    + reflexivity.
    + cbn. lia.
Qed.
Lemma in_range_iff lo hi z : in_range lo hi z = true <-> (lo <= z <= hi)%Z.
Proof. unfold in_range. rewrite andb_true_iff, !Z.leb_le. reflexivity. Qed.
(* the inclusion of one literal range in another is left to evaluation *)
Lemma in_range_mono lo hi lo' hi' z :
  in_range lo hi z = true -> (lo' <=? lo)%Z = true -> (hi <=? hi')%Z = true -> in_range lo' hi' z = true.
Proof.
  intros H H1 H2. apply in_range_iff in H. apply Z.leb_le in H1, H2. apply in_range_iff. lia.
Qed.
Lemma parse_i64_itoa z : in_range I64_MIN I64_MAX z = true -> parse_i64 (lossy (itoa z)) = IOk z.
Proof. intros H. rewrite lossy_itoa. apply parse_int_itoa; [exact (proj1 (in_range_iff _ _ _) H)|now left]. Qed.
Lemma parse_unsigned_itoa hi z : in_range 0 hi z = true -> parse_int false 0 hi (lossy (itoa z)) = IOk z.
Proof.
  intros H. apply in_range_iff in H. rewrite lossy_itoa. apply parse_int_itoa; [exact H|right; lia].
Qed.

Lemma ext_int_itoa z : in_range I64_MIN I64_MAX z = true -> ext_int (EBulk (itoa z)) = Ok z.
Proof. intros H. unfold ext_int. now rewrite parse_i64_itoa. Qed.
Lemma ext_u64_itoa z : in_range 0 U64_MAX z = true -> ext_u64 (EBulk (itoa z)) = Ok z.
Proof. intros H. unfold ext_u64, parse_u64. now rewrite parse_unsigned_itoa. Qed.

Lemma ext_unext k v : wf_val k v = true -> extract k (EBulk (unext_k k v)) = Ok v.
Proof.
  destruct k, v; cbn [wf_val]; try discriminate; intros H; cbn [unext_k unext unext_usz extract];
    try (pose proof (proj1 (in_range_iff _ _ _) H) as Hr).
  - (* KStr *) apply Bytes.bytes_eqb_eq in H. now rewrite H.
  - (* KUpStr *) apply Bytes.bytes_eqb_eq in H. now rewrite H.
  - (* KSds *) reflexivity.
  - (* KInt *) now rewrite ext_int_itoa.
  - (* KUsz: a value from 2^63 up is printed as the negative literal it was read from *)
    unfold U64_MAX in Hr. destruct (Z.ltb_spec z (2 ^ 63)).
    + rewrite ext_int_itoa by (apply in_range_iff; unfold I64_MIN, I64_MAX; lia).
      now rewrite Z.mod_small by (unfold TWO64; lia).
    + rewrite ext_int_itoa by (apply in_range_iff; unfold I64_MIN, I64_MAX, TWO64; lia).
      do 2 f_equal. unfold TWO64. replace (z - 2 ^ 64)%Z with (z + (-1) * 2 ^ 64)%Z by lia.
      rewrite Z.mod_add by lia. apply Z.mod_small. lia.
  - (* KU64 *) now rewrite ext_u64_itoa.
  - (* KU64bit *) now rewrite ext_u64_itoa.
  - (* KBit *)
    rewrite ext_int_itoa by (apply (in_range_mono _ _ _ _ _ H); reflexivity). cbn [remap].
    destruct (Z.ltb_spec z 0); [lia|]. destruct (Z.ltb_spec 1 z); [lia|]. reflexivity.
  - (* KOffset *)
    rewrite ext_int_itoa by (apply (in_range_mono _ _ _ _ _ H); reflexivity).
    destruct (Z.ltb_spec z 0); [lia|]. reflexivity.
  - (* KFloat *)
    apply andb_true_iff in H as [H1 H2]. apply Bytes.bytes_eqb_eq in H1. rewrite H1.
    destruct (float_class t); [reflexivity|discriminate].
  - (* KFinite *)
    apply andb_true_iff in H as [H1 H2]. apply Bytes.bytes_eqb_eq in H1. rewrite H1.
    destruct (float_class t) as [[| |]|]; try discriminate. reflexivity.
  - (* KDb *)
    rewrite ext_u64_itoa by (apply (in_range_mono _ _ _ _ _ H); reflexivity).
    destruct (Z.ltb_spec 15 z); [lia|]. reflexivity.
  - (* KUszStr *) unfold parse_u64. now rewrite parse_unsigned_itoa.
  - (* KU32Str *) unfold parse_u32. now rewrite parse_unsigned_itoa.
Qed.

Lemma extract_list_unext k l :
  forallb (wf_val k) l = true -> extract_list k (map EBulk (map (unext_k k) l)) = Ok l.
Proof.
  induction l as [|v l IH]; cbn [forallb map extract_list]; intros H; [reflexivity|].
  apply andb_true_iff in H as [H1 H2]. now rewrite (ext_unext _ _ H1), (IH H2).
Qed.
Definition pair_tokens (k1 k2 : kind) (p : cval) : list bytes :=
  match p with VP a b => [unext_k k1 a; unext_k k2 b] | _ => [] end.
Lemma extract_pairs_unext k1 k2 l :
  forallb (wf_pair k1 k2) l = true ->
  extract_pairs k1 k2 (map EBulk (flat_map (pair_tokens k1 k2) l)) = Ok l
  /\ List.length (flat_map (pair_tokens k1 k2) l) = (2 * List.length l)%nat.
Proof.
  induction l as [|v l IH]; cbn [forallb flat_map]; intros H; [split; reflexivity|].
  apply andb_true_iff in H as [H1 H2]. destruct v; try discriminate. cbn [wf_pair] in H1.
  apply andb_true_iff in H1 as [Ha Hb]. destruct (IH H2) as [E L].
  cbn [pair_tokens app map extract_pairs]. rewrite (ext_unext _ _ Ha), (ext_unext _ _ Hb), E.
  split; [reflexivity|]. cbn [List.length]. rewrite L. lia.
Qed.
Lemma extract_pre_unext pre : forall vs rest,
  wf_pre pre vs = true ->
  extract_pre pre (map EBulk (unext_pre pre vs) ++ rest) = Ok (vs, rest)
  /\ List.length (unext_pre pre vs) = List.length pre.
Proof.
  induction pre as [|k pre IH]; intros [|v vs] rest; cbn [wf_pre]; try discriminate; intros H.
  - split; reflexivity.
  - apply andb_true_iff in H as [H1 H2]. destruct (IH vs rest H2) as [E L].
    cbn [unext_pre map app extract_pre]. rewrite (ext_unext _ _ H1), E. cbn [fst snd].
    split; [reflexivity|]. cbn [List.length]. now rewrite L.
Qed.

Lemma run_simple tag pre tl e a1 a2 :
  wf_pre pre a1 = true -> wf_tail tl a2 = true ->
  run_rule (RSimple tag pre tl e) (map EBulk (unext_pre pre a1 ++ unext_tail tl a2))
  = POk (Cmd tag (a1 ++ a2)).
Proof.
  intros Hp Ht. rewrite map_app.
  destruct (extract_pre_unext pre a1 (map EBulk (unext_tail tl a2)) Hp) as [E L].
  unfold run_rule. rewrite E, app_length, !map_length, L. cbn [arity_ok fst snd].
  destruct tl; cbn [wf_tail] in Ht; destruct a2 as [|[] [|]]; try discriminate; cbn [unext_tail List.length map].
  - (* TNone *) now rewrite Nat.add_0_r, Nat.eqb_refl, app_nil_r.
  - (* TAny *) now rewrite app_nil_r.
  - (* TList0 *) rewrite (extract_list_unext _ _ Ht), (proj2 (Nat.leb_le _ _)) by lia. reflexivity.
  - (* TList *)
    apply andb_true_iff in Ht as [Hn Hf]. rewrite (extract_list_unext _ _ Hf), map_length.
    destruct l; [discriminate|]. rewrite (proj2 (Nat.leb_le _ _)) by (cbn [List.length]; lia). reflexivity.
  - (* TPairs *)
    apply andb_true_iff in Ht as [Hn Hf]. fold (pair_tokens k1 k2).
    destruct (extract_pairs_unext k1 k2 l Hf) as [E2 L2]. rewrite E2, L2.
    destruct l; [discriminate|].
    rewrite Nat.add_comm, Nat.add_sub, Nat.even_mul, (proj2 (Nat.leb_le _ _)) by (cbn [List.length]; lia).
    reflexivity.
Qed.

Lemma simple_of_In path t p r :
  In (p, r) (simple_of path t) -> exists n, p = path ++ [n] /\ In (n, r) t.
Proof.
  unfold simple_of. intros H. apply in_flat_map in H as [[n r0] [HI H]].
  cbn [fst snd] in H. destruct r0; [|contradiction].
  destruct H as [H|[]]. injection H as <- <-. exists n. split; [reflexivity|exact HI].
Qed.
Lemma find_tag_In tag ix : forall path pre tl,
  find_tag tag ix = Some (path, pre, tl) -> exists e, In (path, RSimple tag pre tl e) ix.
Proof.
  induction ix as [|[p r] ix IH]; cbn [find_tag]; intros path pre tl H; [discriminate|].
  destruct r as [t pr l e|].
  - destruct (String.eqb_spec tag t) as [->|Hne].
    + injection H as <- <- <-. exists e. now left.
    + destruct (IH _ _ _ H) as [e' He']. exists e'. now right.
  - destruct (IH _ _ _ H) as [e' He']. exists e'. now right.
Qed.

Local Transparent grammar. (* facts found by evaluating the tables *)
Definition all_names : list bytes :=
  names grammar ++ flat_map (fun ct => fst ct :: names (snd ct)) subtables.
Lemma all_names_upper : forallb (fun n => bytes_eqb (ustr n) n) all_names = true.
Proof. vm_compute. reflexivity. Qed.
Definition is_container (ct : bytes * list (bytes * rule)) : Prop :=
  exists miss unk, lookup (fst ct) grammar = Some (RCustom 1 None miss (sub_run (snd ct) unk)).
Lemma subtables_containers : Forall is_container subtables.
Proof.
  unfold subtables. repeat constructor; unfold is_container; cbn [fst snd].
  - exists (wrong_args "config"), config_unknown. reflexivity.
  - exists (tx "ACL requires a subcommand"), acl_unknown. reflexivity.
  - exists (tx "SCRIPT requires a subcommand"), script_unknown. reflexivity.
  - exists (wrong_args "function"), (named_unknown "FUNCTION"). reflexivity.
  - exists (wrong_args "client"), (named_unknown "CLIENT"). reflexivity.
  - exists (wrong_args "object"), (named_unknown "OBJECT"). reflexivity.
  - exists (wrong_args "debug"), debug_unknown. reflexivity.
Qed.
Local Opaque grammar.

Lemma ustr_table_name n : In n all_names -> ustr n = n.
Proof.
  intros H. pose proof all_names_upper as HU. rewrite forallb_forall in HU.
  apply Bytes.bytes_eqb_eq. now apply HU.
Qed.
(* what [parse_sub_row] below asks of a subcommand row *)
Lemma subtable_row c tbl n r :
  In (c, tbl) subtables -> In (n, r) tbl ->
  is_container (ustr c, tbl) /\ lookup (ustr n) tbl = Some r.
Proof.
  intros H H2.
  assert (HI : forall m, In m (c :: names tbl) -> ustr m = m).
  { intros m Hm. apply ustr_table_name, in_or_app. right. apply in_flat_map. now exists (c, tbl). }
  pose proof subtables_containers as HC. rewrite Forall_forall in HC.
  pose proof subtables_NoDup as HN. rewrite Forall_forall in HN.
  rewrite (HI c) by now left. rewrite (HI n) by (right; exact (in_map fst _ _ H2)).
  split; [exact (HC _ H)|]. apply lookup_unique; [exact (HN _ H)|exact H2].
Qed.

Local Open Scope string_scope.
Local Open Scope list_scope.
Local Open Scope bool_scope.
(* printed tokens are tagged keyword / argument; [cased k] applies [k] to the keywords *)
Local Notation cased k := (map (fun t : bool * bytes => if fst t then k (snd t) else snd t)).
Definition custom_ok (k : bytes -> bytes) (tag : string) (c : custom) : Prop :=
  forall a, c_canon c a = true ->
            exists ts, c_unparse c a = Some ts /\ parse_cmd (cased k ts) = POk (Cmd tag a).

Lemma setn_same n : forall st x, nth_error st n = Some x -> setn n x st = st.
Proof.
  unfold setn. induction n as [|n IH]; intros [|y st] x; cbn; try discriminate.
  - now intros [= ->].
  - intros H. f_equal. exact (IH _ _ H).
Qed.

Local Ltac andb_hyps :=
  repeat match goal with
         | H : (_ && _)%bool = true |- _ => apply andb_true_iff in H as [? ?]
         end.
Local Ltac ext := repeat (rewrite ext_unext by assumption).

Lemma dir_upper f : is_dir f = true -> ustr f = f.
Proof.
  unfold is_dir. intros H. apply orb_true_iff in H as [H|H]; apply Bytes.bytes_eqb_eq in H; now subst f.
Qed.
Lemma run_custom lo hi e f args :
  arity_ok (RCustom lo hi e f) (List.length args) = true -> run_rule (RCustom lo hi e f) args = f args.
Proof. intros H. unfold run_rule. now rewrite H. Qed.

Lemma firstn_app_len {A} (l1 l2 : list A) n : List.length l1 = n -> firstn n (l1 ++ l2) = l1.
Proof. intros <-. rewrite firstn_app, Nat.sub_diag, firstn_all. cbn. apply app_nil_r. Qed.
Lemma skipn_app_len {A} (l1 l2 : list A) n : List.length l1 = n -> skipn n (l1 ++ l2) = l2.
Proof. intros <-. rewrite skipn_app, Nat.sub_diag, skipn_all. reflexivity. Qed.
Lemma find_custom_In tag l : forall c, find_custom tag l = Some c -> In (tag, c) l.
Proof.
  induction l as [|[t c0] l IH]; cbn [find_custom]; intros c H; [discriminate|].
  destruct (String.eqb_spec tag t) as [->|Hne].
  - injection H as <-. now left.
  - right. auto.
Qed.


Section Casing.
  Variable k : bytes -> bytes.
  Hypothesis Hk : forall w, ustr (k w) = ustr w.

  Lemma parse_row n r args :
    lookup (ustr n) grammar = Some r -> parse_frame (Some (EBulk (k n) :: args)) = run_rule r args.
  Proof. intros H. unfold parse_frame. now rewrite Hk, H. Qed.
  Lemma kw_cased w : kw_of (EBulk (k w)) = Ok (ustr w).
  Proof. unfold kw_of. now rewrite Hk. Qed.
  Lemma parse_sub_row c tbl miss unk n r args :
    lookup (ustr c) grammar = Some (RCustom 1 None miss (sub_run tbl unk)) ->
    lookup (ustr n) tbl = Some r ->
    parse_frame (Some (EBulk (k c) :: EBulk (k n) :: args)) = run_rule r args.
  Proof.
    intros H1 H2. rewrite (parse_row _ _ _ H1).
    unfold run_rule at 1. cbn [arity_ok List.length Nat.leb andb negb].
    unfold sub_run. now rewrite kw_cased, H2.
  Qed.

  Lemma cased_path_args path xs :
    cased k (map (fun w => (true, w)) path ++ map arg xs) = map k path ++ xs.
  Proof.
    rewrite map_app, !map_map. cbn [fst snd arg]. f_equal.
    induction xs; cbn; congruence.
  Qed.

  Lemma parse_unparse_simple tag a path pre tl :
    find_tag tag simple_index = Some (path, pre, tl) -> canonical (Cmd tag a) = true ->
    exists ps, unparse_k k (Cmd tag a) = Some ps /\ parse_cmd ps = POk (Cmd tag a).
  Proof.
    intros HF HC. unfold canonical in HC. unfold unparse_k, unparse_tokens. rewrite HF in *.
    apply andb_true_iff in HC as [Hp Ht]. eexists. split; [reflexivity|]. rewrite cased_path_args.
    destruct (find_tag_In _ _ _ _ _ HF) as [e HI].
    replace (Cmd tag a) with (Cmd tag (firstn (List.length pre) a ++ skipn (List.length pre) a))
      by (now rewrite firstn_skipn).
    unfold simple_index in HI. apply in_app_or in HI as [HI|HI].
    - apply simple_of_In in HI as (n & -> & HI). unfold parse_cmd. cbn [app map].
      rewrite (parse_row n (RSimple tag pre tl e)); [now apply run_simple|].
      rewrite ustr_table_name; [exact (grammar_lookup _ _ HI)|].
      apply in_or_app. left. exact (in_map fst _ _ HI).
    - apply in_flat_map in HI as ([c tbl] & HS & HI). cbn [fst snd] in HI.
      apply simple_of_In in HI as (n & -> & HI). unfold parse_cmd. cbn [app map].
      destruct (subtable_row _ _ _ _ HS HI) as ((miss & unk & HL) & Hl).
      rewrite (parse_sub_row _ _ _ _ _ _ _ HL Hl). now apply run_simple.
  Qed.

  (* What the option loop does with the tokens printed for one field [v] of the command, when the
     slot of [v] still holds its initial value: it stores [v] there.  A field that is off prints
     nothing and is the initial value. *)
  Lemma oloop_flag tbl unk st kw n v rest :
    lookup (ustr (tx kw)) tbl = Some (AFlag n) -> is_flag v = true -> nth_error st n = Some F ->
    oloop tbl unk st (map EBulk (cased k (opt_flag kw v ++ rest)))
    = oloop tbl unk (setn n v st) (map EBulk (cased k rest)).
  Proof.
    intros HL HF HS. destruct v as [| | | | |[|]| | |]; try discriminate; cbn [opt_flag map app fst snd].
    - cbn [oloop]. now rewrite kw_cased, HL.
    - now rewrite (setn_same n st (VFlag false) HS).
  Qed.
  Lemma oloop_val tbl unk st kw n kd miss v rest :
    lookup (ustr (tx kw)) tbl = Some (AVal n kd miss) ->
    wf_opt kd v = true -> nth_error st n = Some (VOpt None) ->
    oloop tbl unk st (map EBulk (cased k (opt_val kw kd v ++ rest)))
    = oloop tbl unk (setn n v st) (map EBulk (cased k rest)).
  Proof.
    intros HL HF HS. destruct v as [| | | | | |[x|]| |]; try discriminate; cbn [opt_val map app fst snd].
    - cbn [oloop]. rewrite kw_cased, HL. cbn [wf_opt] in HF. now rewrite (ext_unext _ _ HF).
    - now rewrite (setn_same n st (VOpt None) HS).
  Qed.
  Lemma oloop_flag_end tbl unk st kw n v :
    lookup (ustr (tx kw)) tbl = Some (AFlag n) -> is_flag v = true -> nth_error st n = Some F ->
    oloop tbl unk st (map EBulk (cased k (opt_flag kw v))) = Ok (setn n v st).
  Proof.
    intros. rewrite <- (app_nil_r (opt_flag kw v)). erewrite oloop_flag by eassumption. reflexivity.
  Qed.
  Lemma oloop_val_end tbl unk st kw n kd miss v :
    lookup (ustr (tx kw)) tbl = Some (AVal n kd miss) ->
    wf_opt kd v = true -> nth_error st n = Some (VOpt None) ->
    oloop tbl unk st (map EBulk (cased k (opt_val kw kd v))) = Ok (setn n v st).
  Proof.
    intros. rewrite <- (app_nil_r (opt_val kw kd v)). erewrite oloop_val by eassumption. reflexivity.
  Qed.

  Ltac dopt v := destruct v as [| | | | | |[?|]| |]; try discriminate.
  (* a side condition is a hypothesis or holds by evaluation; a keyword is upper-cased first, once,
     because the unifier would evaluate [ustr (tx s)] again at every row it is compared with *)
  Ltac side :=
    eassumption ||
    (try match goal with
         | |- context [ustr (tx ?s)] =>
             let v := eval vm_compute in (ustr (tx s)) in change (ustr (tx s)) with v
         end;
     reflexivity).


  Local Transparent grammar. (* the printers below find their rows by [side] *)
  Ltac start := intros a HC; cbn [c_canon c_unparse] in *.
  Ltac open_frame :=
    eexists; split; [reflexivity|]; unfold parse_cmd; cbn [map fst snd kwd ua arg app].
  Ltac enter NAME :=
    erewrite (parse_row (tx NAME)) by side;
    unfold run_rule; cbn [container arity_ok List.length Nat.leb andb negb].
  (* After the loop the state is a chain of [setn] on the initial list; computed, it is the
     command's argument list [a], and [flag_at i a], [some_at i a] are [flag_of], [is_some] of
     its fields, unfolded. *)
  Ltac read_state := cbv [setn firstn skipn app none4]; cbv [flag_at some_at nth].

  Lemma ping_ok : custom_ok k "Ping" {| c_canon := c_ping; c_unparse := u_ping |}.
  Proof.
    start. destruct a as [|o [|? ?]]; try discriminate; dopt o; cbn [c_ping] in HC; try discriminate.
    all: open_frame; enter "PING"; unfold p_ping; ext; reflexivity.
  Qed.

  Lemma auth_ok : custom_ok k "Auth" {| c_canon := c_auth; c_unparse := u_auth |}.
  Proof.
    start. destruct a as [|o [|p [|? ?]]]; try discriminate; dopt o; cbn [c_auth] in HC; try discriminate; andb_hyps.
    all: open_frame; enter "AUTH"; unfold p_auth; ext; reflexivity.
  Qed.

  Lemma set_ok : custom_ok k "Set" {| c_canon := c_set; c_unparse := u_set |}.
  Proof.
    start.
    destruct a as [|k0 [|v [|ex [|px [|exat [|pxat [|nx [|xx [|g [|kt [|]]]]]]]]]]]; try discriminate.
    cbn [c_set] in HC. apply andb_true_iff in HC as [HC Hkt]. apply andb_true_iff in HC as [HC Hnx].
    andb_hyps. open_frame. enter "SET". unfold p_set. ext.
    rewrite (oloop_flag set_kw _ _ "NX" 6) by side.
    rewrite (oloop_flag set_kw _ _ "XX" 7) by side.
    rewrite (oloop_flag set_kw _ _ "GET" 8) by side.
    erewrite (oloop_val set_kw _ _ "EX" 2 KInt) by side.
    erewrite (oloop_val set_kw _ _ "PX" 3 KInt) by side.
    erewrite (oloop_val set_kw _ _ "EXAT" 4 KInt) by side.
    erewrite (oloop_val set_kw _ _ "PXAT" 5 KInt) by side.
    rewrite (oloop_flag_end set_kw _ _ "KEEPTTL" 9) by side.
    read_state. apply negb_true_iff in Hnx, Hkt. unfold flag_of, is_some in Hnx, Hkt.
    rewrite Hnx, Hkt. reflexivity.
  Qed.

  Lemma getex_ok : custom_ok k "GetEx" {| c_canon := c_getex; c_unparse := u_getex |}.
  Proof.
    start. destruct a as [|k0 [|ex [|px [|exat [|pxat [|ps [|]]]]]]]; try discriminate.
    cbn [c_getex] in HC. apply andb_true_iff in HC as [HC Hone].
    andb_hyps. open_frame. enter "GETEX". unfold p_getex. ext.
    erewrite (oloop_val getex_kw _ _ "EX" 1 KInt) by side.
    erewrite (oloop_val getex_kw _ _ "PX" 2 KInt) by side.
    erewrite (oloop_val getex_kw _ _ "EXAT" 3 KInt) by side.
    erewrite (oloop_val getex_kw _ _ "PXAT" 4 KInt) by side.
    rewrite (oloop_flag_end getex_kw _ _ "PERSIST" 5) by side.
    read_state. unfold flag_of, is_some in Hone. rewrite Nat.ltb_antisym, Hone. reflexivity.
  Qed.

  Lemma expire_ok name tag e :
    lookup (ustr (tx name)) grammar = Some (RCustom 2 None e (p_expire tag)) ->
    custom_ok k tag {| c_canon := c_expire; c_unparse := u_expire name |}.
  Proof.
    intros HR. start. destruct a as [|k0 [|n [|nx [|xx [|gt [|lt [|]]]]]]]; try discriminate.
    cbn [c_expire] in HC. apply andb_true_iff in HC as [HC Hgl]. apply andb_true_iff in HC as [HC Hnx].
    andb_hyps. open_frame. enter name. unfold p_expire. ext.
    rewrite (oloop_flag expire_kw _ _ "NX" 2) by side.
    rewrite (oloop_flag expire_kw _ _ "XX" 3) by side.
    rewrite (oloop_flag expire_kw _ _ "GT" 4) by side.
    rewrite (oloop_flag_end expire_kw _ _ "LT" 5) by side.
    read_state. apply negb_true_iff in Hnx, Hgl. unfold flag_of in Hnx, Hgl.
    rewrite Hnx, Hgl. reflexivity.
  Qed.

  Lemma oloop_limit tbl unk st kw n miss off cnt rest :
    lookup (ustr (tx kw)) tbl = Some (ALimit n miss) ->
    wf_val KInt off = true -> wf_val KUsz cnt = true ->
    oloop tbl unk st (map EBulk (cased k ([kwd kw; ua KInt off; ua KUsz cnt] ++ rest)))
    = oloop tbl unk (setn n (VOpt (Some (VP off cnt))) st) (map EBulk (cased k rest)).
  Proof.
    intros HL Ho Hc. cbn [app map fst snd kwd ua oloop]. rewrite kw_cased, HL.
    now rewrite (ext_unext _ _ Ho), (ext_unext _ _ Hc).
  Qed.

  Lemma zrangebyscore_ok :
    custom_ok k "ZRangeByScore" {| c_canon := c_zrangebyscore; c_unparse := u_zrangebyscore |}.
  Proof.
    start. destruct a as [|k0 [|mn [|mx [|ws [|lim [|? ?]]]]]]; try discriminate;
      destruct lim as [| | | | | |[[| | | | | | | |off cnt]|]| |];
      cbn [c_zrangebyscore] in HC; try discriminate; andb_hyps.
    all: open_frame; enter "ZRANGEBYSCORE"; unfold p_zrangebyscore; ext.
    - rewrite (oloop_flag zrbs_kw _ _ "WITHSCORES" 3) by side.
      rewrite <- (app_nil_r [kwd "LIMIT"; _; _]). erewrite (oloop_limit zrbs_kw _ _ "LIMIT" 4) by side.
      reflexivity.
    - rewrite (oloop_flag_end zrbs_kw _ _ "WITHSCORES" 3) by side. reflexivity.
  Qed.

  Lemma scan_ok : custom_ok k "Scan" {| c_canon := c_scan; c_unparse := u_scan |}.
  Proof.
    start. destruct a as [|c [|pat [|cnt [|? ?]]]]; try discriminate.
    cbn [c_scan] in HC. andb_hyps. open_frame. enter "SCAN". unfold p_scan. ext.
    erewrite (oloop_val (scan_kw 1) _ _ "MATCH" 1 KStr) by side.
    erewrite (oloop_val_end (scan_kw 1) _ _ "COUNT" 2 KUsz) by side.
    reflexivity.
  Qed.

  Lemma kscan_ok name tag e :
    lookup (ustr (tx name)) grammar = Some (RCustom 2 None e (p_kscan tag name)) ->
    custom_ok k tag {| c_canon := c_kscan; c_unparse := u_kscan name |}.
  Proof.
    intros HR. start. destruct a as [|k0 [|c [|pat [|cnt [|? ?]]]]]; try discriminate.
    cbn [c_kscan] in HC. andb_hyps. open_frame. enter name. unfold p_kscan. ext.
    erewrite (oloop_val (scan_kw 2) _ _ "MATCH" 2 KStr) by side.
    erewrite (oloop_val_end (scan_kw 2) _ _ "COUNT" 3 KUsz) by side.
    reflexivity.
  Qed.

  Lemma sort_ok : custom_ok k "Sort" {| c_canon := c_sort; c_unparse := u_sort |}.
  Proof.
    start. destruct a as [|k0 [|st [|? ?]]]; try discriminate.
    cbn [c_sort] in HC. andb_hyps. dopt st.
    all: open_frame; enter "SORT"; unfold p_sort; ext.
    - cbn [opt_val map oloop fst snd app]. rewrite kw_cased.
      cbn [wf_opt] in *. ext. reflexivity.
    - reflexivity.
  Qed.

  Lemma zrange_ok name tag e :
    lookup (ustr (tx name)) grammar = Some (RCustom 3 (Some 4%nat) e (p_zrange tag)) ->
    custom_ok k tag {| c_canon := c_zrange; c_unparse := u_zrange name |}.
  Proof.
    intros HR. start. destruct a as [|k0 [|x [|y [|ws [|? ?]]]]]; try discriminate.
    cbn [c_zrange] in HC. andb_hyps. destruct ws as [| | | | |[|]| | |]; try discriminate.
    all: open_frame; cbn [opt_flag map app fst snd]; enter name; unfold p_zrange; ext.
    - rewrite kw_cased. reflexivity.
    - reflexivity.
  Qed.

  Lemma spop_ok : custom_ok k "SPop" {| c_canon := c_spop; c_unparse := u_spop |}.
  Proof.
    start. destruct a as [|k0 [|o [|? ?]]]; try discriminate; dopt o; cbn [c_spop] in HC; try discriminate; andb_hyps.
    all: open_frame; enter "SPOP"; unfold p_spop; ext; reflexivity.
  Qed.

  Lemma lmove_ok : custom_ok k "LMove" {| c_canon := c_lmove; c_unparse := u_lmove |}.
  Proof.
    start. destruct a as [|s [|d [|f [|t [|? ?]]]]]; try discriminate;
    destruct f as [f| | | | | | | |]; try discriminate; destruct t as [t| | | | | | | |]; try discriminate.
    cbn [c_lmove] in HC. apply andb_true_iff in HC as [HC Ht]. apply andb_true_iff in HC as [HC Hf].
    andb_hyps. open_frame. enter "LMOVE". unfold p_lmove. ext.
    rewrite !kw_cased, (dir_upper _ Hf), (dir_upper _ Ht).
    unfold is_dir in Hf, Ht. rewrite Hf, Ht. reflexivity.
  Qed.

  (* ZADD reads its flags before the pairs, with a loop of its own *)
  Lemma zadd_flags_flag st kw n v rest :
    zadd_flag (ustr (tx kw)) = Some n -> is_flag v = true -> nth_error st n = Some F ->
    zadd_flags st (map EBulk (cased k (opt_flag kw v ++ rest)))
    = zadd_flags (setn n v st) (map EBulk (cased k rest)).
  Proof.
    intros HL HF HS. destruct v as [| | | | |[|]| | |]; try discriminate; cbn [opt_flag map app fst snd].
    - cbn [zadd_flags]. now rewrite kw_cased, HL.
    - now rewrite (setn_same n st (VFlag false) HS).
  Qed.
  Lemma pair_toks_tokens k1 k2 ps :
    map EBulk (cased k (flat_map (pair_toks k1 k2) ps)) = map EBulk (flat_map (pair_tokens k1 k2) ps).
  Proof.
    induction ps as [|p ps IH]; [reflexivity|]. cbn [flat_map]. rewrite !map_app, IH. f_equal.
    destruct p; reflexivity.
  Qed.
  Lemma zadd_ok : custom_ok k "ZAdd" {| c_canon := c_zadd; c_unparse := u_zadd |}.
  Proof.
    start. destruct a as [|k0 [|ps [|nx [|xx [|gt [|lt [|ch [|? ?]]]]]]]]; try discriminate;
    destruct ps as [| | | | | | |ps|]; try discriminate.
    cbn [c_zadd] in HC. apply andb_true_iff in HC as [HC Hfirst]. andb_hyps.
    destruct ps as [|[| | | | | | | |[| | |t| | | | |] m] ps]; try discriminate.
    match goal with H : forallb (wf_pair KFloat KSds) _ = true |- _ =>
      destruct (extract_pairs_unext KFloat KSds _ H) as [EP LP] end.
    open_frame. erewrite (parse_row (tx "ZADD")) by side.
    rewrite run_custom.
    2:{ cbn [arity_ok andb]. rewrite Bool.andb_true_r. apply Nat.leb_le. cbn [List.length].
        rewrite !map_length, !app_length. cbn [flat_map pair_toks app List.length]. lia. }
    unfold p_zadd. ext.
    rewrite (zadd_flags_flag _ "NX" 2) by side.
    rewrite (zadd_flags_flag _ "XX" 3) by side.
    rewrite (zadd_flags_flag _ "GT" 4) by side.
    rewrite (zadd_flags_flag _ "LT" 5) by side.
    rewrite (zadd_flags_flag _ "CH" 6) by side. rewrite pair_toks_tokens.
    (* the first score is not a flag word: the flag loop stops there, with all the pairs left *)
    match goal with |- context [zadd_flags ?s ?l] => replace (zadd_flags s l) with (Ok (s, l)) end.
    2:{ cbn [flat_map pair_tokens app map unext_k unext zadd_flags kw_of].
        destruct (zadd_flag (ustr t)); [discriminate Hfirst|reflexivity]. }
    cbn [fst snd]. rewrite map_length, LP, Nat.even_mul, EP. reflexivity.
  Qed.

  Lemma cased_ua kd l : map EBulk (cased k (map (ua kd) l)) = map EBulk (map (unext_k kd) l).
  Proof. rewrite !map_map. apply map_ext. reflexivity. Qed.
  Lemma eval_ok name tag e :
    lookup (ustr (tx name)) grammar = Some (RCustom 2 None e (p_eval tag name)) ->
    custom_ok k tag {| c_canon := c_eval; c_unparse := u_eval name |}.
  Proof.
    intros HR. start. destruct a as [|s [|ks [|vs [|? ?]]]]; try discriminate;
    destruct ks as [| | | | | | |ks|]; try discriminate; destruct vs as [| | | | | | |vs|]; try discriminate.
    cbn [c_eval] in HC. apply andb_true_iff in HC as [HC HB]. apply Z.leb_le in HB. andb_hyps. open_frame.
    rewrite !map_app. enter name. unfold p_eval. ext. rewrite !cased_ua.
    rewrite ext_int_itoa by (apply in_range_iff; unfold I64_MIN; lia).
    destruct (Z.ltb_spec (Z.of_nat (List.length ks)) 0); [lia|].
    rewrite app_length, !map_length.
    destruct (Z.ltb_spec (Z.of_nat (List.length ks + List.length vs)) (Z.of_nat (List.length ks))); [lia|].
    rewrite Nat2Z.id.
    rewrite firstn_app_len, skipn_app_len by (now rewrite !map_length).
    rewrite !extract_list_unext by assumption. reflexivity.
  Qed.

  Ltac enter_acl SUB :=
    erewrite (parse_sub_row (tx "ACL") acl_tbl _ _ (tx SUB)) by side;
    unfold run_rule; cbn [arity_ok List.length Nat.leb andb negb].

  Lemma aclcat_ok : custom_ok k "AclCat" {| c_canon := c_optional KStr; c_unparse := u_aclcat |}.
  Proof.
    start. destruct a as [|o [|? ?]]; try discriminate; dopt o; cbn [c_optional] in HC; try discriminate.
    all: open_frame; enter_acl "CAT"; unfold p_acl_cat; ext; reflexivity.
  Qed.
  Lemma aclgenpass_ok : custom_ok k "AclGenPass" {| c_canon := c_optional KU32Str; c_unparse := u_aclgenpass |}.
  Proof.
    start. destruct a as [|o [|? ?]]; try discriminate; dopt o; cbn [c_optional] in HC; try discriminate.
    all: open_frame; enter_acl "GENPASS"; unfold p_acl_genpass; ext; reflexivity.
  Qed.

  Lemma acllog_ok : custom_ok k "AclLog" {| c_canon := c_optional KUszStr; c_unparse := u_acllog |}.
  Proof.
    start. destruct a as [|o [|? ?]]; try discriminate; dopt o; cbn [c_optional] in HC; try discriminate.
    all: open_frame; enter_acl "LOG"; unfold p_acl_log.
    2: reflexivity.
    destruct c; try discriminate. cbn [wf_val] in HC. cbn [unext_k unext kw_of].
    pose proof (proj1 (in_range_iff _ _ _) HC) as Hr.
    destruct (nonneg_itoa_digits z ltac:(lia)) as [Hd Hne].
    rewrite (ustr_ascii _ (all_digits_ascii _ Hd)), (map_up1_digits _ Hd).
    (* a decimal numeral is not the word RESET *)
    destruct (itoa z) as [|d ds] eqn:E; [contradiction|].
    assert (HR : bytes_eqb (d :: ds) (tx "RESET") = false).
    { cbn [all_digits forallb] in Hd. apply andb_true_iff in Hd as [Hd _]. apply is_digit_range in Hd.
      cbn. destruct (N.eqb_spec d 82); [lia|reflexivity]. }
    rewrite HR, <- E. unfold parse_u64. rewrite <- (lossy_itoa z), parse_unsigned_itoa by exact HC. reflexivity.
  Qed.

  Lemma acllogreset_ok : custom_ok k "AclLogReset" {| c_canon := c_const; c_unparse := u_const ["ACL"; "LOG"; "RESET"] |}.
  Proof.
    start. destruct a; try discriminate. open_frame. enter_acl "LOG".
    unfold p_acl_log. rewrite kw_cased. reflexivity.
  Qed.
  Lemma commandcommand_ok : custom_ok k "CommandCommand" {| c_canon := c_const; c_unparse := u_const ["COMMAND"] |}.
  Proof. start. destruct a; try discriminate. open_frame. enter "COMMAND". reflexivity. Qed.
  Lemma commandcount_ok : custom_ok k "CommandCount" {| c_canon := c_const; c_unparse := u_const ["COMMAND"; "COUNT"] |}.
  Proof.
    start. destruct a; try discriminate. open_frame. enter "COMMAND".
    unfold p_command. rewrite kw_cased. reflexivity.
  Qed.

  Lemma debugset_ok : custom_ok k "DebugSet" {| c_canon := c_debugset; c_unparse := u_debugset |}.
  Proof.
    start. destruct a as [|sub [|v [|? ?]]]; try discriminate; destruct sub as [sub| | | | | | | |]; try discriminate.
    cbn [c_debugset] in HC. apply andb_true_iff in HC as [HC Hv]. apply andb_true_iff in HC as [Hup Hnone].
    apply Bytes.bytes_eqb_eq in Hup. open_frame. enter "DEBUG".
    unfold sub_run. rewrite kw_cased, Hup.
    unfold none_lookup in Hnone. destruct (lookup sub debug_tbl); [discriminate Hnone|].
    unfold debug_unknown. ext. reflexivity.
  Qed.
  Lemma unknown_ok : custom_ok k "Unknown" {| c_canon := c_unknown; c_unparse := u_unknown |}.
  Proof.
    start. destruct a as [|n [|? ?]]; try discriminate; destruct n as [n| | | | | | | |]; try discriminate.
    cbn [c_unknown] in HC. apply andb_true_iff in HC as [Hup Hnone]. apply Bytes.bytes_eqb_eq in Hup.
    open_frame. unfold parse_frame. rewrite Hk, Hup.
    unfold none_lookup in Hnone. destruct (lookup n grammar); [discriminate Hnone|]. reflexivity.
  Qed.

  Lemma customs_ok : Forall (fun tc => custom_ok k (fst tc) (snd tc)) customs.
  Proof.
    unfold customs. repeat apply Forall_cons; try apply Forall_nil; cbn [fst snd].
    - exact ping_ok.
    - exact auth_ok.
    - exact set_ok.
    - exact getex_ok.
    - eapply (expire_ok "EXPIRE" "Expire"); side.
    - eapply (expire_ok "PEXPIRE" "PExpire"); side.
    - exact zrangebyscore_ok.
    - exact scan_ok.
    - eapply (kscan_ok "HSCAN" "HScan"); side.
    - eapply (kscan_ok "ZSCAN" "ZScan"); side.
    - exact sort_ok.
    - exact zadd_ok.
    - eapply (zrange_ok "ZRANGE" "ZRange"); side.
    - eapply (zrange_ok "ZREVRANGE" "ZRevRange"); side.
    - exact spop_ok.
    - exact lmove_ok.
    - eapply (eval_ok "EVAL" "Eval"); side.
    - eapply (eval_ok "EVALSHA" "EvalSha"); side.
    - exact aclcat_ok.
    - exact aclgenpass_ok.
    - exact acllog_ok.
    - exact acllogreset_ok.
    - exact commandcommand_ok.
    - exact commandcount_ok.
    - exact debugset_ok.
    - exact unknown_ok.
  Qed.
  Local Opaque grammar.

  Theorem parse_unparse_k c :
    canonical c = true -> exists ps, unparse_k k c = Some ps /\ parse_cmd ps = POk c.
  Proof.
    destruct c as [tag a]. intros HC.
    destruct (find_tag tag simple_index) as [[[path pre] tl]|] eqn:HF.
    - exact (parse_unparse_simple _ _ _ _ _ HF HC).
    - unfold canonical in HC. rewrite HF in HC. unfold canonical_custom in HC.
      destruct (find_custom tag customs) as [cu|] eqn:HCu; [|discriminate].
      pose proof (find_custom_In _ _ _ HCu) as HIn. pose proof customs_ok as HA. rewrite Forall_forall in HA.
      specialize (HA _ HIn). cbn [fst snd] in HA. destruct (HA a HC) as (ts & HU & HP).
      exists (cased k ts). split; [|exact HP].
      unfold unparse_k, unparse_tokens. rewrite HF. unfold unparse_custom. rewrite HCu, HU. reflexivity.
  Qed.
End Casing.

Theorem parse_unparse c :
  canonical c = true -> exists ps, unparse c = Some ps /\ parse_cmd ps = POk c.
Proof. apply (parse_unparse_k (fun w => w)). reflexivity. Qed.
Theorem parse_unparse_any_case (k : bytes -> bytes) :
  (forall w, case_variant w (k w)) ->
  forall c, canonical c = true -> exists ps, unparse_k k c = Some ps /\ parse_cmd ps = POk c.
Proof. intros H. apply parse_unparse_k. intros w. symmetry. apply case_variant_ustr, H. Qed.

Lemma up1_low1 x : up1 (low1 x) = up1 x.
Proof.
  unfold up1, low1. destruct (N.leb_spec 65 x); destruct (N.leb_spec x 90); cbn [andb]; try reflexivity.
  destruct (N.leb_spec 97 (x + 32)); [|lia]. destruct (N.leb_spec (x + 32) 122); [|lia].
  destruct (N.leb_spec 97 x); [lia|]. cbn [andb]. lia.
Qed.
Lemma lower_kw_ok w : ustr (lower_kw w) = ustr w.
Proof.
  unfold lower_kw. destruct (forallb _ w); [|reflexivity].
  apply case_variant_ustr. induction w; constructor; [apply up1_low1|assumption].
Qed.

Definition rule_safe (r : rule) : Prop := forall args, run_rule r args <> PPanic.

(* [Pn] arises nowhere but in an option loop; a chain of binds is not [Pn] when no link is *)
Lemma bind_no_pn {A B} (r : res A) (f : A -> res B) :
  r <> Pn -> (forall a, f a <> Pn) ->
  (match r with Ok x => f x | Er t => Er t | Pn => Pn end) <> Pn.
Proof. intros H1 H2. destruct r; [apply H2|discriminate|contradiction]. Qed.
Lemma ext_int_no_pn e : ext_int e <> Pn.
Proof. destruct e as [b|z|]; cbn [ext_int]; try discriminate. destruct (parse_i64 (lossy b)); discriminate. Qed.
Lemma ext_u64_no_pn e : ext_u64 e <> Pn.
Proof. destruct e as [b|z|]; cbn [ext_u64]; try discriminate. destruct (parse_u64 (lossy b)); discriminate. Qed.
Lemma remap_no_pn {A} t (r : res A) : r <> Pn -> remap t r <> Pn.
Proof. destruct r; [discriminate|discriminate|contradiction]. Qed.
Lemma extract_no_pn k e : extract k e <> Pn.
Proof.
  pose proof (ext_int_no_pn e) as HI. pose proof (ext_u64_no_pn e) as HU.
  (* no branch yields [Pn]: take binds and tests apart until that is plain *)
  destruct k; cbn [extract];
    repeat first [ discriminate | apply bind_no_pn; [auto using remap_no_pn|intro]
                 | match goal with |- context [match ?x with _ => _ end] => destruct x end ].
Qed.
Lemma kw_of_no_pn e : kw_of e <> Pn.
Proof. destruct e; discriminate. Qed.
Lemma extract_list_no_pn k es : extract_list k es <> Pn.
Proof.
  induction es as [|e t IH]; cbn [extract_list]; [discriminate|].
  apply bind_no_pn; [apply extract_no_pn|intros v]. apply bind_no_pn; [exact IH|discriminate].
Qed.
Lemma extract_pairs_no_pn k1 k2 : forall es, extract_pairs k1 k2 es <> Pn.
Proof.
  fix IH 1. intros [|a [|b t]]; cbn [extract_pairs]; try discriminate.
  apply bind_no_pn; [apply extract_no_pn|intros x]. apply bind_no_pn; [apply extract_no_pn|intros y].
  apply bind_no_pn; [apply IH|discriminate].
Qed.
Lemma extract_pre_no_pn pre : forall es, extract_pre pre es <> Pn.
Proof.
  induction pre as [|k pre IH]; intros [|e es]; cbn [extract_pre]; try discriminate.
  apply bind_no_pn; [apply extract_no_pn|intros v]. apply bind_no_pn; [apply IH|discriminate].
Qed.
Lemma zadd_flags_no_pn : forall args st, zadd_flags st args <> Pn.
Proof.
  induction args as [|a rest IH]; intros st; cbn [zadd_flags]; [discriminate|].
  apply bind_no_pn; [apply kw_of_no_pn|intros w]. destruct (zadd_flag w); [apply IH|discriminate].
Qed.

(* an option loop yields [Pn] only at a valued option declared without a missing-value text *)
Definition tbl_total (tbl : list (bytes * oact)) : bool :=
  forallb (fun na => match snd na with AVal _ _ None => false | _ => true end) tbl.
Lemma oloop_no_pn tbl unk : tbl_total tbl = true -> forall args st, oloop tbl unk st args <> Pn.
Proof.
  intros HT args.
  (* the loop takes one, two or three arguments at a time *)
  enough (G : forall n args st, (List.length args <= n)%nat -> oloop tbl unk st args <> Pn)
    by (intros st; exact (G _ args st (le_n _))).
  clear args. induction n as [|n IH]; intros [|a rest] st H; cbn [oloop]; try discriminate; cbn [List.length] in H; [lia|].
  apply bind_no_pn; [apply kw_of_no_pn|intros kw].
  destruct (lookup kw tbl) as [[m|m kd miss|m miss|m|pre post]|] eqn:EL.
  - apply IH. lia.
  - destruct rest as [|v rest'].
    + destruct miss; [discriminate|]. apply lookup_In in EL.
      unfold tbl_total in HT. rewrite forallb_forall in HT. discriminate (HT _ EL).
    + apply bind_no_pn; [apply extract_no_pn|intros x]. apply IH. cbn [List.length] in H. lia.
  - destruct rest as [|o [|c rest']]; try discriminate.
    apply bind_no_pn; [apply extract_no_pn|intros x]. apply bind_no_pn; [apply extract_no_pn|intros y].
    apply IH. cbn [List.length] in H. lia.
  - destruct rest as [|v rest']; [discriminate|].
    apply bind_no_pn; [apply extract_no_pn|intros x]. apply IH. cbn [List.length] in H. lia.
  - discriminate.
  - destruct unk; try discriminate. apply IH. lia.
Qed.

Lemma to_presult_safe tag r : r <> Pn -> to_presult tag r <> PPanic.
Proof. destruct r; [discriminate | discriminate | contradiction]. Qed.

Lemma simple_safe tag pre tl e : rule_safe (RSimple tag pre tl e).
Proof.
  intros args. unfold run_rule. destruct (negb _); [discriminate|].
  apply to_presult_safe, bind_no_pn; [apply extract_pre_no_pn|intros pr].
  destruct tl; try discriminate; (apply bind_no_pn; [|discriminate]).
  - apply extract_list_no_pn.
  - apply extract_list_no_pn.
  - apply extract_pairs_no_pn.
Qed.

Create HintDb no_pn.
#[local] Hint Resolve extract_no_pn ext_int_no_pn kw_of_no_pn extract_list_no_pn extract_pairs_no_pn
  zadd_flags_no_pn oloop_no_pn : no_pn.
#[local] Hint Extern 1 (tbl_total _ = true) => reflexivity : no_pn.
(* inside a custom parser: a bind whose head is not [Pn], by one of the lemmas above, goes on with its
   body; a test is split; a bind that feeds something else than another bind is taken apart *)
Local Ltac step :=
  first
    [ apply bind_no_pn; [solve [auto with no_pn]|intro]
    | match goal with |- context [if ?b then _ else _] => destruct b end
    | match goal with
      | |- context [match ?r with Ok _ => _ | Er _ => _ | Pn => _ end] =>
          let H := fresh in assert (H : r <> Pn) by auto with no_pn; destruct r; [| | contradiction]
      end ].
Local Ltac steps := repeat (try discriminate; step); try discriminate; auto with no_pn.

(* a custom parser may rely on its arity window; the arity text plays no part *)
Definition custom_safe lo hi (f : list relem -> presult) : Prop :=
  forall e args, arity_ok (RCustom lo hi e f) (List.length args) = true -> f args <> PPanic.
Lemma custom_is_safe lo hi e f : custom_safe lo hi f -> rule_safe (RCustom lo hi e f).
Proof.
  intros H args. unfold run_rule. destruct (arity_ok _ _) eqn:E; cbn [negb]; [exact (H e args E)|discriminate].
Qed.
Local Ltac shape := cbn [arity_ok List.length Nat.leb andb] in *; try discriminate.

Lemma p_ping_safe : custom_safe 0 None p_ping.
Proof. intros e [|m ?] _; cbn [p_ping]; [discriminate|]. apply to_presult_safe. steps. Qed.
Lemma p_auth_safe : custom_safe 1 (Some 2%nat) p_auth.
Proof. intros e [|a [|b [|c ?]]] H; shape; cbn [p_auth]; apply to_presult_safe; steps. Qed.
Lemma p_set_safe : custom_safe 2 None p_set.
Proof. intros e [|a [|b rest]] H; shape. unfold p_set. steps. Qed.
Lemma set_with_safe n : custom_safe 3 (Some 3%nat) (set_with n).
Proof. intros e [|a [|b [|c [|d ?]]]] H; shape. cbn [set_with]. apply to_presult_safe. steps. Qed.
Lemma p_getex_safe : custom_safe 1 None p_getex.
Proof. intros e [|a rest] H; shape. unfold p_getex. apply to_presult_safe. steps. Qed.
Lemma p_expire_safe tag : custom_safe 2 None (p_expire tag).
Proof. intros e [|a [|b rest]] H; shape. unfold p_expire. apply to_presult_safe. steps. Qed.
Lemma p_zrbs_safe : custom_safe 3 None p_zrangebyscore.
Proof. intros e [|a [|b [|c rest]]] H; shape. unfold p_zrangebyscore. apply to_presult_safe. steps. Qed.
Lemma p_scan_safe : custom_safe 1 None p_scan.
Proof. intros e [|a rest] H; shape. unfold p_scan. apply to_presult_safe. steps. Qed.
Lemma p_kscan_safe tag name : custom_safe 2 None (p_kscan tag name).
Proof. intros e [|a [|b rest]] H; shape. unfold p_kscan. apply to_presult_safe. steps. Qed.
Lemma p_sort_safe : custom_safe 1 None p_sort.
Proof. intros e [|a rest] H; shape. unfold p_sort. apply to_presult_safe. steps. Qed.
Lemma p_zadd_safe : custom_safe 3 None p_zadd.
Proof. intros e [|a rest] H; shape. unfold p_zadd. apply to_presult_safe. steps. Qed.
Lemma p_zrange_safe tag : custom_safe 3 (Some 4%nat) (p_zrange tag).
Proof. intros e [|a [|b [|c rest]]] H; shape. unfold p_zrange. apply to_presult_safe. steps. destruct rest; steps. Qed.
Lemma p_spop_safe : custom_safe 1 (Some 2%nat) p_spop.
Proof. intros e [|a rest] H; shape. unfold p_spop. apply to_presult_safe. steps. destruct rest; steps. Qed.
Lemma p_lmove_safe : custom_safe 4 (Some 4%nat) p_lmove.
Proof. intros e [|a [|b [|c [|d [|? ?]]]]] H; shape. cbn [p_lmove]. apply to_presult_safe. steps. Qed.
Lemma p_eval_safe tag name : custom_safe 2 None (p_eval tag name).
Proof. intros e [|a [|b rest]] H; shape. unfold p_eval, eval_negative. apply to_presult_safe. steps. Qed.
Lemma p_command_safe : custom_safe 0 None p_command.
Proof. intros e [|a rest] _; cbn [p_command]; [discriminate|]. steps. Qed.
Lemma p_acl_cat_safe : custom_safe 0 None p_acl_cat.
Proof. intros e [|a rest] _; cbn [p_acl_cat]; [discriminate|]. apply to_presult_safe. steps. Qed.
Lemma p_acl_genpass_safe : custom_safe 0 None p_acl_genpass.
Proof. intros e [|a rest] _; cbn [p_acl_genpass]; [discriminate|]. apply to_presult_safe. steps. Qed.
Lemma p_acl_log_safe : custom_safe 0 (Some 1%nat) p_acl_log.
Proof.
  intros e [|a [|b ?]] H; shape; cbn [p_acl_log]; try discriminate. steps. destruct (parse_u64 _); discriminate.
Qed.
Lemma stub_safe name : custom_safe 0 None (fun _ => POk (Cmd "Unknown" [VS (tx name)])).
Proof. discriminate. Qed.
Lemma debug_unknown_safe s r : debug_unknown s r <> PPanic.
Proof. destruct r; cbn [debug_unknown]; [discriminate|]. apply to_presult_safe. steps. Qed.

(* a simple row is safe whatever it holds, so only the custom rows need looking at *)
Definition rows_safe (t : list (bytes * rule)) : Prop := Forall (fun nr => rule_safe (snd nr)) t.
Definition is_custom (nr : bytes * rule) : bool :=
  match snd nr with RCustom _ _ _ _ => true | RSimple _ _ _ _ => false end.
Lemma rows_safe_custom t : rows_safe (filter is_custom t) -> rows_safe t.
Proof.
  unfold rows_safe. induction t as [|[n [tag pre tl e|lo hi e f]] t IH]; cbn [filter is_custom snd]; intros H.
  - constructor.
  - constructor; [apply simple_safe|exact (IH H)].
  - inversion H; subst. constructor; auto.
Qed.
Lemma sub_run_safe tbl unk :
  rows_safe tbl -> (forall s r, unk s r <> PPanic) -> custom_safe 1 None (sub_run tbl unk).
Proof.
  intros HT HU e [|a rest] H; shape. unfold sub_run. steps.
  destruct (lookup _ tbl) eqn:EL; [|apply HU].
  apply lookup_In in EL. unfold rows_safe in HT. rewrite Forall_forall in HT. exact (HT _ EL rest).
Qed.

Create HintDb parser_safe.
#[local] Hint Resolve p_ping_safe p_auth_safe p_set_safe set_with_safe p_getex_safe p_expire_safe p_zrbs_safe
  p_scan_safe p_kscan_safe p_sort_safe p_zadd_safe p_zrange_safe p_spop_safe p_lmove_safe p_eval_safe
  p_command_safe p_acl_cat_safe p_acl_genpass_safe p_acl_log_safe stub_safe debug_unknown_safe sub_run_safe
  : parser_safe.
#[local] Hint Extern 1 (_ <> PPanic) => discriminate : parser_safe.
(* the custom rows of a table, each by the lemma about its parser *)
Local Ltac custom_rows :=
  apply rows_safe_custom; cbv [filter is_custom snd konst key1 obj1 container stub];
  repeat (apply Forall_cons; [cbn [snd]; apply custom_is_safe; auto with parser_safe|]); apply Forall_nil.

Local Transparent grammar. (* the rows are walked *)
Lemma subtables_safe : Forall (fun ct => rows_safe (snd ct)) subtables.
Proof.
  unfold subtables.
  repeat (apply Forall_cons;
          [cbn [snd];
           unfold config_tbl, acl_tbl, acl_stubs, script_tbl, function_tbl, client_tbl, object_tbl, debug_tbl;
           custom_rows|]).
  apply Forall_nil.
Qed.
Lemma grammar_safe : rows_safe grammar.
Proof.
  (* the subtables' part as hypotheses, for the container rows *)
  pose proof subtables_safe as HS. unfold subtables in HS.
  repeat (apply Forall_cons_iff in HS as [? HS]). cbn [snd] in *.
  unfold grammar. custom_rows.
Qed.
Local Opaque grammar.

Theorem no_panic f : parse_frame f <> PPanic.
Proof.
  destruct f as [[|[n| |] args]|]; unfold parse_frame; try discriminate.
  destruct (lookup (ustr n) grammar) eqn:E; [|discriminate].
  apply lookup_In in E. pose proof grammar_safe as HS. unfold rows_safe in HS.
  rewrite Forall_forall in HS. exact (HS _ E args).
Qed.
Corollary lua_no_panic parts : lua_parse parts <> PPanic.
Proof.
  destruct parts as [|n rest]; cbn [lua_parse]; [discriminate|].
  destruct (lua_supported (ustr n)); [apply no_panic|discriminate].
Qed.

Section ScriptThm.
  Variable state : Type.
  Variable exec : state -> cmd -> state * resp.
  Theorem script_call_direct s n rest :
    lua_supported (ustr n) = true ->
    (forall t, parse_cmd (n :: rest) = PErr t -> lossy t = t) ->
    script_call state exec s (n :: rest) =
      (fst (direct_call state exec s (n :: rest)),
       match parse_cmd (n :: rest) with
       | POk _ => conv (snd (direct_call state exec s (n :: rest)))
       | _ => snd (direct_call state exec s (n :: rest))
       end).
  Proof.
    intros H HU. unfold script_call, direct_call. rewrite (lua_parse_eq_parse _ _ H).
    destruct (parse_cmd (n :: rest)) as [c|t|] eqn:E.
    - destruct (exec s c). reflexivity.
    - unfold conv, err_reply. cbn [fst snd resp_to_lua resp_to_lua_with].
      rewrite lua_to_resp_tab. cbn [get_str].
      rewrite (HU t eq_refl), Bytes.bytes_eqb_refl. reflexivity.
    - exact (False_ind _ (no_panic _ E)).
  Qed.
  Theorem script_call_eq_direct s n rest :
    lua_supported (ustr n) = true ->
    (forall t, parse_cmd (n :: rest) = PErr t -> lossy t = t) ->
    parse_cmd (n :: rest) <> PPanic ->
    script_call state exec s (n :: rest) =
      (fst (direct_call state exec s (n :: rest)),
       match parse_cmd (n :: rest) with
       | POk _ => conv (snd (direct_call state exec s (n :: rest)))
       | _ => snd (direct_call state exec s (n :: rest))
       end).
  Proof. intros H HU _. exact (script_call_direct s n rest H HU). Qed.
End ScriptThm.

(* EVAL's key count: a negative count is an error, not a panic (before b9ac17d: PPanic) *)
Lemma p_eval_negative tag name s z rest :
  (z < 0)%Z -> in_range I64_MIN I64_MAX z = true ->
  p_eval tag name (EBulk s :: EBulk (itoa z) :: rest) = PErr (tx "ERR Number of keys can't be negative").
Proof.
  intros Hz Hr. unfold p_eval. cbn [extract]. rewrite ext_int_itoa by exact Hr.
  destruct (Z.ltb_spec z 0); [reflexivity|lia].
Qed.
Theorem eval_negative_numkeys name s z rest :
  (name = tx "EVAL" \/ name = tx "EVALSHA") -> (z < 0)%Z -> in_range I64_MIN I64_MAX z = true ->
  exists c, parse_cmd (name :: s :: itoa z :: rest) = PErr c /\ c = tx "ERR Number of keys can't be negative".
Proof.
  intros Hn Hz Hr. eexists. split; [|reflexivity]. unfold parse_cmd. cbn [map].
  destruct Hn as [-> | ->];
    erewrite (parse_row (fun w => w) (fun w => eq_refl)) by reflexivity;
    exact (p_eval_negative _ _ s z _ Hz Hr).
Qed.

Lemma lua_subset_witness :
  let parts := [tx "SUBSTR"; tx "j"; tx "2"; tx "-1"] in
  parse_cmd parts = POk (Cmd "GetRange" [VS (tx "j"); VI 2; VI (-1)])
  /\ lua_parse parts = PErr (tx "ERR Unknown Redis command 'SUBSTR' called from Lua").
Proof. split; vm_compute; reflexivity. Qed.
