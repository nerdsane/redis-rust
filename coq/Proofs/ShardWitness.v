(* C03 - concrete witnesses over Model/MiniKV.v: the refuted class (two-key and keyless
   state-dependent commands) and a concrete run inside SingleHome (non-vacuity).
   Every witness is a fact about concrete runs and is proved by evaluating them.  What costs in
   such a run is SipHash, which every fan-out arm calls once per item and shard, so the runs are
   evaluated with a routing function that looks the witnesses' keys up in a table ([memo]); the
   table's rows are hashed once each ([homes2_ok], [homes3_ok]). *)
From stdpp Require Import gmap sorting.
From Coq Require Import NArith ZArith String Lia.
From RV Require Import Lib.Hex Lib.SipHash Gen.KeyTable Model.Shard Model.MiniKV Proofs.ShardProofs.
Local Open Scope N_scope.

Definition k0 : list N := [107; 48].   (* "k0": shard 0 of 2 *)
Definition k1 : list N := [107; 49].   (* "k1": shard 1 of 2 *)
Definition d0 : list N := [100; 48].   (* "d0": shard 0 of 2 *)
Definition d1 : list N := [100; 49].   (* "d1": shard 1 of 2 *)
Definition va : list N := [97].
Definition vb : list N := [98].

Definition refuted_by (init : list (req arg)) (c : cmd arg) (probe : req arg) : Prop :=
  let shN := (runN mini home_str home_bytes (replicate 2 ∅) init).1 in
  let sh1 := (runN mini home_str home_bytes [∅] init).1 in
  Forall (SingleHome mini home_str 2) init /\
  KnownClass mini home_str 2 (Generic c) /\ SingleHome mini home_str 2 probe /\
  (runN mini home_str home_bytes shN [Generic c; probe]).2 <> (runN mini home_str home_bytes sh1 [Generic c; probe]).2.

Fixpoint table_find (k : list N) (t : list (list N * nat)) : option nat :=
  match t with [] => None | (x, i) :: r => if decide (k = x) then Some i else table_find k r end.
Definition memo (n0 : nat) (t : list (list N * nat)) (n : nat) (k : list N) : nat :=
  match (if decide (n = n0) then table_find k t else None) with Some i => i | None => home_str n k end.
(* on one shard there is nothing to hash *)
Definition route_one (n : nat) (k : list N) : nat := if decide (n = 1%nat) then O else home_str n k.

Definition table_right (n : nat) (t : list (list N * nat)) : Prop := Forall (fun p => home_str n p.1 = p.2) t.

Lemma memo_eq n0 t : table_right n0 t -> forall n k, memo n0 t n k = home_str n k.
Proof.
  intros Ht n k. unfold memo. destruct (decide (n = n0)) as [->|]; [|done].
  induction Ht as [|[x i] t Hx _ IH]; [done|]. cbn. destruct (decide (k = x)) as [->|]; [|exact IH].
  symmetry. exact Hx.
Qed.
Lemma route_one_eq n k : route_one n k = home_str n k.
Proof. unfold route_one. destruct (decide (n = 1%nat)) as [->|]; [|done]. pose proof (home_str_lt 1 k). lia. Qed.

Lemma run_as {V P} (X : executor V P) hs sh rs : (forall n k, hs n k = home_str n k) ->
  runN X home_str home_bytes sh rs = runN X hs hs sh rs.
Proof. intros Hh. apply runN_ext; intros n k; rewrite ?home_bytes_str; symmetry; apply Hh. Qed.

Definition homes2 : list (list N * nat) := [(d0, 0%nat); (d1, 1%nat); (k0, 0%nat); (k1, 1%nat)].
Definition homes3 : list (list N * nat) :=
  [(d0, 2%nat); (d1, 1%nat); (k0, 0%nat); (k1, 0%nat); ([100; 50], 0%nat); ([120], 0%nat)].
Lemma homes2_ok : table_right 2 homes2.
Proof. repeat (apply Forall_cons; split; [rewrite <- home_fast_eq; by vm_compute|]). by apply Forall_nil. Qed.
Lemma homes3_ok : table_right 3 homes3.
Proof. repeat (apply Forall_cons; split; [rewrite <- home_fast_eq; by vm_compute|]). by apply Forall_nil. Qed.

(* Requests inside SingleHome whatever the routing: an arm of the dispatcher's own, a fast path, or a well-formed command on
   one key that confines itself to it *)
Definition wf_op (tag : string) (nkeys : nat) : bool :=
  negb (in_tags tag dispatch_arms) &&
  match table_row tag with Some (_, spec) => conforms spec nkeys | None => false end.
Definition plain (r : req arg) : bool :=
  match r with
  | Generic (COp tag [_] _) => wf_op tag 1 && negb (is_randomkey tag)
  | Generic (COp _ _ _ | CBatchGet _ | CBatchSet _) => false
  | _ => true
  end.

Lemma wf_op_WfCmd {P} tag ks (p : P) : wf_op tag (List.length ks) = true -> WfCmd (COp tag ks p).
Proof.
  intros [Harm Hrow]%andb_prop. split; [by apply negb_true_iff|].
  destruct (table_row tag) as [[pk spec]|]; [eauto|done].
Qed.

Lemma plain_single_home home n r : plain r = true -> SingleHome mini home n r.
Proof.
  destruct r as [c| | | |]; [|done..]. intros Hp.
  assert (forall a b : list N, a ∈ [] -> b ∈ [] -> a = b) as Hnil by (intros a b Ha; by apply elem_of_nil in Ha).
  destruct c as [| | | | | | | | | | |tag [|k [|]] p]; try done; try (by apply SingleHome_same_key).
  apply andb_prop in Hp as [Hwf Hrk]. apply SingleHome_same_key.
  - by apply wf_op_WfCmd.
  - intros a b ->%elem_of_list_singleton ->%elem_of_list_singleton. done.
  - intros _. by apply negb_true_iff.
Qed.
Lemma plain_all home n rs : forallb plain rs = true -> Forall (SingleHome mini home n) rs.
Proof. rewrite forallb_forall, Forall_forall. intros H r Hr. by apply plain_single_home, H, elem_of_list_In. Qed.

(* Commands in KnownClass on 2 shards: two keys that [homes2] puts on different shards, or RANDOMKEY *)
Definition crossing (c : cmd arg) : bool :=
  match c with
  | COp tag [] _ => is_randomkey tag
  | COp _ [a; b] _ => negb (Nat.eqb (memo 2 homes2 2 a) (memo 2 homes2 2 b))
  | _ => false
  end.
Lemma crossing_KnownClass c : crossing c = true -> KnownClass mini home_str 2 (Generic c).
Proof.
  destruct c as [| | | | | | | | | | |tag [|a [|b [|]]] p]; try done; cbn; intros H.
  - right. split; [done|]. by rewrite H.
  - left. exists a, b. rewrite <- !(memo_eq 2 homes2 homes2_ok 2).
    split; [apply elem_of_list_here|]. split; [apply elem_of_list_further, elem_of_list_here|].
    by apply Nat.eqb_neq, negb_true_iff.
Qed.

(* a witness is three boolean checks and one comparison of two small runs *)
Lemma refuted_by_intro init c probe :
  forallb plain init && crossing c && plain probe = true ->
  let m := memo 2 homes2 in
  (runN mini m m (runN mini m m (replicate 2 ∅) init).1 [Generic c; probe]).2
  <> (runN mini route_one route_one (runN mini route_one route_one [∅] init).1 [Generic c; probe]).2 ->
  refuted_by init c probe.
Proof.
  intros [[Hi Hc]%andb_prop Hp]%andb_prop m Hne. unfold refuted_by.
  split; [by apply plain_all|]. split; [by apply crossing_KnownClass|]. split; [by apply plain_single_home|].
  rewrite (run_as mini m _ [_; _]), (run_as mini m _ init) by apply memo_eq, homes2_ok.
  by rewrite (run_as mini route_one [∅]), (run_as mini route_one _ [_; _]) by apply route_one_eq.
Qed.

Definition ex_run : list (req arg) :=
  [ FastSet false d0 va;
    Generic (COp "Get" [d0] ArgNone);
    Generic (CMSet [(d1, vb); (k0, va); (k1, vb)]);
    Generic (CMGet [d0; d1; k0; k1; d0]);
    PipeSet [(d1, va); (k1, va)];
    PipeGet [k1; d1; d0];
    FastSet true k0 vb;
    FastGet true k0;
    Generic (COp "Append" [k0] (ArgB va));
    Generic (COp "RPush" [[100; 50]] (ArgL [va; vb]));
    Generic (COp "LPop" [[100; 50]] ArgNone);
    Generic (CExists [d0; d1; [120]; d0]);
    Generic CDbSize;
    Generic (CKeys [100; 49]);
    Generic (CScan 0 None (Some 2%N));
    Generic (CScan 2 None (Some 2%N));
    Generic (CDel [d0; k1; [120]]);
    Generic (CDel [d1]);
    Generic CDbSize;
    Generic (CFlush false);
    Generic CDbSize ].
Definition ex_replies : list reply :=
  Eval vm_compute in (runN mini home_str home_bytes [∅] ex_run).2.

Lemma ex_run_3 : (runN mini home_str home_bytes (replicate 3 ∅) ex_run).2 = ex_replies.
Proof. rewrite (run_as mini (memo 3 homes3)) by apply memo_eq, homes3_ok. vm_compute. reflexivity. Qed.
Lemma ex_run_1 : (runN mini home_str home_bytes [∅] ex_run).2 = ex_replies.
Proof. rewrite (run_as mini route_one) by apply route_one_eq. vm_compute. reflexivity. Qed.
