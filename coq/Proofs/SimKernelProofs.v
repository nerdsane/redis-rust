(* Lemmas for C20: the repaired gossip round does not depend on the order in which the
   routing table (a HashMap) is iterated; the round before the repair does. *)
From Coq Require Import List NArith Permutation Sorted.
From RV Require Import Lib.ListFacts Model.SimKernel.
Import ListNotations.
Local Open Scope N_scope.

Lemma fold_left_ext_in : forall (A B : Type) (f g : A -> B -> A) (l : list B) (a : A),
  (forall a x, In x l -> f a x = g a x) -> fold_left f l a = fold_left g l a.
Proof.
  intros A B f g l. induction l as [|x l IH]; intros a H; simpl.
  - reflexivity.
  - rewrite (H a x (or_introl eq_refl)). apply IH. intros a' y Hy. apply H. right. exact Hy.
Qed.

Lemma fold_left_perm_comm : forall (A B : Type) (f : A -> B -> A),
  (forall a x y, f (f a x) y = f (f a y) x) ->
  forall l1 l2, Permutation l1 l2 -> forall a, fold_left f l1 a = fold_left f l2 a.
Proof.
  intros A B f Hc l1 l2 HP. induction HP; intros a; simpl.
  - reflexivity.
  - apply IHHP.
  - rewrite Hc. reflexivity.
  - rewrite IHHP1. apply IHHP2.
Qed.

Lemma perm_invariant : forall (A R : Type) (g : list A -> R) (h : A -> R -> R),
  (forall x l, g (x :: l) = h x (g l)) ->
  (forall x y r, h x (h y r) = h y (h x r)) ->
  forall l1 l2, Permutation l1 l2 -> g l1 = g l2.
Proof.
  intros A R g h Hg Hc l1 l2 HP. induction HP.
  - reflexivity.
  - rewrite !Hg, IHHP. reflexivity.
  - rewrite !Hg. apply Hc.
  - rewrite IHHP1. exact IHHP2.
Qed.

Lemma forallb_perm : forall (A : Type) (p : A -> bool) l1 l2,
  Permutation l1 l2 -> forallb p l1 = forallb p l2.
Proof.
  intros A p. apply perm_invariant with (h := fun x b => (p x && b)%bool).
  - reflexivity.
  - intros x y r. destruct (p x), (p y); reflexivity.
Qed.

Lemma existsb_perm : forall (A : Type) (p : A -> bool) l1 l2,
  Permutation l1 l2 -> existsb p l1 = existsb p l2.
Proof.
  intros A p. apply perm_invariant with (h := fun x b => (p x || b)%bool).
  - reflexivity.
  - intros x y r. destruct (p x), (p y); reflexivity.
Qed.

Lemma count_perm : forall (A : Type) (p : A -> bool) l1 l2,
  Permutation l1 l2 -> length (filter p l1) = length (filter p l2).
Proof.
  intros A p. apply perm_invariant with (h := fun x n => if p x then S n else n).
  - intros x l. simpl. destruct (p x); reflexivity.
  - intros x y r. destruct (p x), (p y); reflexivity.
Qed.

Section Sorting.
  Variable D : Type.
  Notation entry := (N * list D)%type.

  Definition key_lt (a b : entry) : Prop := fst a < fst b.
  Definition key_le (a b : entry) : Prop := fst a <= fst b.

  Lemma insert_perm : forall (e : entry) l, Permutation (insert_by_target D e l) (e :: l).
  Proof.
    intros e l. induction l as [|x r IH]; simpl.
    - apply Permutation_refl.
    - destruct (fst e <=? fst x).
      + apply Permutation_refl.
      + exact (perm_trans (perm_skip x IH) (perm_swap e x r)).
  Qed.

  Lemma sort_perm : forall l : list entry, Permutation (sort_by_target D l) l.
  Proof.
    induction l as [|e l IH]; simpl.
    - apply Permutation_refl.
    - exact (perm_trans (insert_perm e _) (perm_skip e IH)).
  Qed.

  Lemma insert_sorted : forall (e : entry) l,
    StronglySorted key_le l -> StronglySorted key_le (insert_by_target D e l).
  Proof.
    intros e l H. induction H as [|x r Hr IH Hx]; simpl.
    - repeat constructor.
    - destruct (N.leb_spec (fst e) (fst x)) as [E|E].
      + constructor; [constructor; assumption|]. constructor; [exact E|].
        eapply Forall_impl; [|exact Hx]. intros y Hy. exact (N.le_trans _ _ _ E Hy).
      + constructor; [exact IH|].
        apply (Permutation_Forall (Permutation_sym (insert_perm e r))).
        constructor; [exact (N.lt_le_incl _ _ E) | exact Hx].
  Qed.

  Lemma sort_sorted : forall l : list entry, StronglySorted key_le (sort_by_target D l).
  Proof.
    induction l as [|e l IH]; simpl.
    - constructor.
    - apply insert_sorted. exact IH.
  Qed.

  Lemma sorted_lt_le_nodup : forall l : list entry,
    StronglySorted key_lt l -> StronglySorted key_le l /\ NoDup (map fst l).
  Proof.
    intros l H. induction H as [|x r Hr [IH1 IH2] Hx]; [split; constructor|].
    rewrite Forall_forall in Hx. split.
    - constructor; [exact IH1|]. apply Forall_forall. intros y Hy. exact (N.lt_le_incl _ _ (Hx y Hy)).
    - cbn [map]. constructor; [|exact IH2]. intro Hin. apply in_map_iff in Hin.
      destruct Hin as [y [E Hy]]. apply (N.lt_irrefl (fst x)). rewrite <- E at 2. exact (Hx y Hy).
  Qed.

  Lemma sorted_lt_perm_unique : forall l1 l2 : list entry,
    StronglySorted key_lt l1 -> StronglySorted key_lt l2 -> Permutation l1 l2 -> l1 = l2.
  Proof.
    intros l1 l2 H1 H2 HP. destruct (sorted_lt_le_nodup l1 H1) as [S1 N1].
    apply (sorted_key_perm_unique _ fst); [exact S1 | apply sorted_lt_le_nodup, H2 | exact HP | exact N1].
  Qed.

  Lemma sort_perm_eq : forall l1 l2 : list entry,
    NoDup (map fst l2) -> Permutation l1 l2 -> sort_by_target D l1 = sort_by_target D l2.
  Proof.
    intros l1 l2 Hnd HP. apply (sorted_key_perm_unique _ fst).
    - apply sort_sorted.
    - apply sort_sorted.
    - exact (perm_trans (sort_perm l1) (perm_trans HP (Permutation_sym (sort_perm l2)))).
    - exact (Permutation_NoDup (Permutation_map fst (Permutation_sym (perm_trans (sort_perm l1) HP))) Hnd).
  Qed.
End Sorting.

Section KernelProofs.
  Variable D : Type.
  Variable NS : Type.
  Variable apply_deltas : NS -> list D -> NS.
  Variable draw : nat -> N.
  Variable lost : N -> bool.

  Notation table := (list (N * list D)).
  Notation oracle := (nat -> table -> table).
  Notation sender_step := (sender_step D NS draw lost).
  Notation run := (run D NS apply_deltas draw lost).

  (* whatever order the HashMap yields, it yields exactly the table's entries *)
  Definition perm_oracle (o : oracle) : Prop := forall k l, Permutation (o k l) l.

  (* a HashMap holds one entry per key *)
  Definition plan_ok (p : plan D) : Prop :=
    match p with PS tbl => NoDup (map fst tbl) | PB _ => True end.
  Definition step_ok (st : step D) : Prop :=
    match st with SRound ps => Forall plan_ok ps | _ => True end.

  Definition broadcast_only (st : step D) : Prop :=
    match st with SRound ps => Forall (fun p => match p with PB _ => True | PS _ => False end) ps | _ => True end.

  (* A run consults the oracle in [sender_step] only: two oracles that agree there on every
     plan a script may contain give the same run of the script.  [step_ok] and
     [broadcast_only] are the condition on the script for two choices of [P]. *)
  Lemma run_ext : forall (P : plan D -> Prop) fixed (o1 o2 : oracle),
    (forall s from p, P p ->
       sender_step fixed o1 s (from, p) = sender_step fixed o2 s (from, p)) ->
    forall steps s,
    Forall (fun st => match st with SRound ps => Forall P ps | _ => True end) steps ->
    run fixed o1 s steps = run fixed o2 s steps.
  Proof.
    intros P fixed o1 o2 Hsend steps s Hok. apply fold_left_ext_in. intros s1 st Hst.
    apply (proj1 (Forall_forall _ _) Hok) in Hst.
    destruct st as [ps| | |]; try reflexivity.
    apply (f_equal (deliver D NS apply_deltas)). apply fold_left_ext_in. intros s2 [from p] Hp.
    apply Hsend. exact (proj1 (Forall_forall _ _) Hst p (in_combine_r _ _ _ _ Hp)).
  Qed.

  (* a table with distinct targets sorts to the same list from any order *)
  Lemma run_oracle_independent : forall (o1 o2 : oracle) steps s,
    perm_oracle o1 -> perm_oracle o2 -> Forall step_ok steps ->
    run true o1 s steps = run true o2 s steps.
  Proof.
    intros o1 o2 steps s H1 H2 Hok. apply (run_ext plan_ok); [|exact Hok].
    intros s' from [ds|tbl] Hnd.
    - reflexivity.
    - unfold sender_step. simpl.
      rewrite (sort_perm_eq D _ tbl Hnd (H1 _ tbl)), (sort_perm_eq D _ tbl Hnd (H2 _ tbl)).
      reflexivity.
  Qed.

  Definition id_oracle : oracle := fun _ l => l.
  Lemma id_oracle_perm : perm_oracle id_oracle.
  Proof. intros k l. apply Permutation_refl. Qed.

  Lemma run_canonical : forall (o : oracle) steps s,
    perm_oracle o -> Forall step_ok steps ->
    run true o s steps = run true id_oracle s steps.
  Proof.
    intros o steps s H Hok. exact (run_oracle_independent o id_oracle steps s H id_oracle_perm Hok).
  Qed.

  Lemma run_broadcast_indep : forall fixed (o1 o2 : oracle) steps s,
    Forall broadcast_only steps ->
    run fixed o1 s steps = run fixed o2 s steps.
  Proof.
    intros fixed o1 o2 steps s Hok.
    apply (run_ext (fun p => match p with PB _ => True | PS _ => False end)); [|exact Hok].
    intros s' from [ds|tbl] Hb; [reflexivity | destruct Hb].
  Qed.
End KernelProofs.

(* deltas are numbers, a node logs what it was handed *)
Definition w_apply (ns : list N) (ds : list N) : list N := ns ++ ds.
(* first draw 0 (below the loss threshold 50: dropped), all later draws 100 (kept) *)
Definition w_draw (i : nat) : N := match i with O => 0 | _ => 100 end.
Definition w_lost (r : N) : bool := r <? 50.
Definition w_rev : nat -> list (N * list N) -> list (N * list N) := fun _ l => rev l.
(* node 0 routes delta 7 to replica 2 and delta 8 to replica 3; fixed delay 0 *)
Definition w_steps : list (step N) := [SRound [PS [(2, [7]); (3, [8])]; PB []; PB []]].
Definition w_init : sim N (list N) := sim_init N (list N) [[]; []; []] 0 0.

Lemma w_rev_perm : perm_oracle N w_rev.
Proof. intros k l. apply Permutation_sym, Permutation_rev. Qed.

Lemma w_steps_ok : Forall (step_ok N) w_steps.
Proof.
  repeat constructor.
  (* what is left of [NoDup [2; 3]]: 2 is not in [3], 3 is not in [] *)
  - intros [H|[]]. discriminate H.
  - intros [].
Qed.

Lemma unfixed_run_id :
  s_nodes (run N (list N) w_apply w_draw w_lost false (id_oracle N) w_init w_steps) = [[]; []; [8]].
Proof. vm_compute. reflexivity. Qed.

Lemma unfixed_run_rev :
  s_nodes (run N (list N) w_apply w_draw w_lost false w_rev w_init w_steps) = [[]; [7]; []].
Proof. vm_compute. reflexivity. Qed.

Lemma unfixed_oracle_dependent :
  exists o1 o2 : nat -> list (N * list N) -> list (N * list N),
    perm_oracle N o1 /\ perm_oracle N o2 /\ Forall (step_ok N) w_steps /\
    run N (list N) w_apply w_draw w_lost false o1 w_init w_steps <>
    run N (list N) w_apply w_draw w_lost false o2 w_init w_steps.
Proof.
  exists (id_oracle N), w_rev. split; [apply id_oracle_perm|]. split; [apply w_rev_perm|].
  split; [apply w_steps_ok|]. intros H.
  apply (f_equal (@s_nodes N (list N))) in H.
  rewrite unfixed_run_id, unfixed_run_rev in H. discriminate H.
Qed.

Lemma fixed_witness_same :
  s_nodes (run N (list N) w_apply w_draw w_lost true (id_oracle N) w_init w_steps) = [[]; []; [8]] /\
  s_nodes (run N (list N) w_apply w_draw w_lost true w_rev w_init w_steps) = [[]; []; [8]].
Proof. split; vm_compute; reflexivity. Qed.
