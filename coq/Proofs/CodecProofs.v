(* Lemmas about Model/Codec.v (segment and checkpoint framing), for an arbitrary checksum
   function [crc] with 32-bit results and an arbitrary payload validity predicate. *)
From Coq Require Import String Ascii Arith NArith List Bool Lia.
From RV Require Import Lib.Hex Lib.ListFacts Lib.Bytes Lib.Crc32 Gen.Consts Model.Codec.
Import ListNotations.
Local Open Scope N_scope.

Definition U32 : N := 4294967296.
Definition U64 : N := 18446744073709551616.

(* constants the proofs rely on (they stop compiling when segment.rs / checkpoint.rs change) *)
Lemma seg_hs : SEGMENT_HEADER_SIZE = 40. Proof. reflexivity. Qed.
Lemma seg_fs : SEGMENT_FOOTER_SIZE = 24. Proof. reflexivity. Qed.
Lemma chk_hs : CHECKPOINT_HEADER_SIZE = 48. Proof. reflexivity. Qed.
Lemma chk_fs : CHECKPOINT_FOOTER_SIZE = 16. Proof. reflexivity. Qed.

Lemma indexN_0_cons : forall x l, indexN 0 (x :: l) = Some x.
Proof. intros. unfold indexN. rewrite lenN_cons. destruct (N.ltb_spec 0 (1 + lenN l)); [reflexivity|lia]. Qed.
Lemma indexN_1_cons : forall x y l, indexN 1 (x :: y :: l) = Some y.
Proof. intros. unfold indexN. rewrite !lenN_cons. destruct (N.ltb_spec 1 (1 + (1 + lenN l))); [reflexivity|lia]. Qed.

Lemma resize0_pad : forall n b, lenN b <= n -> resize0 n b = b ++ repeat 0 (N.to_nat (n - lenN b)).
Proof.
  intros. unfold resize0. apply takeN_all. rewrite lenN_app, lenN_repeat. lia.
Qed.

(* [len] settles the length side conditions of the slice lemmas: the length of a concatenation of
   fields is the sum of the lengths of the fields, which are literals or given by a hypothesis;
   [lia] only where a length that is a variable remains *)
Local Ltac len :=
  rewrite ?lenN_app, ?lenN_le_enc, ?lenN_cons, ?lenN_nil, ?lenN_repeat;
  repeat match goal with H : lenN ?l = _ |- context [lenN ?l] => rewrite H end;
  first [reflexivity | lia].

Definition fine {A} (r : res ekind A) : Prop := r <> Panic /\ r <> Err EOutOfFuel.
Lemma fine_bind : forall A B (r : res ekind A) (k : A -> res ekind B),
  fine r -> (forall a, fine (k a)) -> fine (rbind r k).
Proof.
  intros A B [a|e|] k [Hp He] Hk; cbn [rbind]; [apply Hk| |congruence].
  split; [discriminate|]. intros E. apply He. congruence.
Qed.

Definition seg_hdr_wf (h : seg_hdr) : Prop :=
  lenN (sh_magic h) = 4 /\ sh_count h < U32 /\ sh_min h < U64 /\ sh_max h < U64 /\ sh_ck h < U32.

Definition seg_fields_of (h : seg_hdr) : bytes :=
  seg_hdr_fields (sh_magic h) (sh_version h) (sh_flags h) (sh_count h) (sh_min h) (sh_max h).
Definition seg_hdr_image (h : seg_hdr) (pad : bytes) : bytes :=
  seg_fields_of h ++ le_enc 4 (sh_ck h) ++ pad.

Lemma lenN_seg_fields : forall h, lenN (sh_magic h) = 4 -> lenN (seg_fields_of h) = 26.
Proof. intros h Hm. unfold seg_fields_of, seg_hdr_fields. len. Qed.
Lemma lenN_seg_hdr_image : forall h pad, lenN (sh_magic h) = 4 -> lenN pad = 10 ->
  lenN (seg_hdr_image h pad) = 40.
Proof. intros h pad Hm Hp. unfold seg_hdr_image. pose proof (lenN_seg_fields h Hm). len. Qed.

Definition seg_ftr_image (ck us cs : N) (m : bytes) : bytes :=
  le_enc 4 ck ++ le_enc 8 us ++ le_enc 8 cs ++ m.
Lemma lenN_seg_ftr_image : forall ck us cs m, lenN m = 4 -> lenN (seg_ftr_image ck us cs m) = 24.
Proof. intros. unfold seg_ftr_image. len. Qed.

Definition payload_ok (p : bytes) : Prop := lenN p < U32.

Lemma length_seg_record : forall p, length (seg_record p) = (4 + length p)%nat.
Proof. intros. unfold seg_record. now rewrite app_length, le_enc_length. Qed.

Definition seg_image (h : seg_hdr) (pad : bytes) (ps : list bytes) (fck us cs : N) (fm : bytes) : bytes :=
  seg_hdr_image h pad ++ concat (map seg_record ps) ++ seg_ftr_image fck us cs fm.

Definition chk_hdr_wf (h : chk_hdr) : Prop :=
  lenN (ch_magic h) = 4 /\ ch_keys h < U64 /\ ch_ts h < U64 /\ ch_last h < U64 /\ ch_ck h < U32.
Definition chk_fields_of (h : chk_hdr) : bytes :=
  chk_hdr_fields (ch_magic h) (ch_version h) (ch_flags h) (ch_keys h) (ch_ts h) (ch_last h).
Definition chk_hdr_image (h : chk_hdr) (pad rsv : bytes) : bytes :=
  ch_magic h ++ [ch_version h; ch_flags h] ++ pad ++ le_enc 8 (ch_keys h) ++ le_enc 8 (ch_ts h)
  ++ le_enc 8 (ch_last h) ++ rsv ++ le_enc 4 (ch_ck h).
Lemma lenN_chk_hdr_image : forall h pad rsv, lenN (ch_magic h) = 4 -> lenN pad = 2 -> lenN rsv = 12 ->
  lenN (chk_hdr_image h pad rsv) = 48.
Proof. intros h pad rsv Hm Hp Hr. unfold chk_hdr_image. len. Qed.

Definition chk_body (n : N) (data : bytes) (dck dsz fck : N) (trailing : bytes) : bytes :=
  le_enc 4 n ++ data ++ (le_enc 4 dck ++ le_enc 8 dsz ++ le_enc 4 fck) ++ trailing.

Definition chk_image (h : chk_hdr) (pad rsv data : bytes) (dck dsz fck : N) (trailing : bytes) : bytes :=
  chk_hdr_image h pad rsv ++ chk_body (lenN data) data dck dsz fck trailing.

Section CodecProofs.
  Variable crc : bytes -> N.
  Variable deser_ok : bytes -> bool.
  Hypothesis crc_u32 : forall d, crc d < U32.

  Notation seg_read := (seg_read crc deser_ok).
  Notation seg_open := (seg_open crc).
  Notation rec_loop := (rec_loop deser_ok).
  Notation chk_read := (chk_read crc deser_ok).

  Lemma seg_hdr_parse : forall h pad, seg_hdr_wf h -> lenN pad = 10 ->
    seg_hdr_from_bytes (seg_hdr_image h pad) = Ok h.
  Proof.
    intros h pad (Hm & Hc & Hmin & Hmax & Hck) Hp.
    unfold seg_hdr_from_bytes. rewrite lenN_seg_hdr_image, seg_hs, N.ltb_irrefl by assumption.
    unfold seg_hdr_image, seg_fields_of, seg_hdr_fields. rewrite <- !app_assoc.
    (* the fields are read from left to right; [app_assoc] moves the field just read into the
       prefix, so that the next one is again the middle of [prefix ++ field ++ rest]; version
       and flags are bytes 0 and 1 of the two-byte block after the magic *)
    rewrite (sliceN_app_head _ (sh_magic h)), (indexN_app_mid _ [_; _] _ 4 0), (indexN_app_mid _ [_; _] _ 5 1) by len.
    rewrite app_assoc, (sliceN_app_mid _ _ (le_enc 4 (sh_count h))) by len.
    rewrite app_assoc, (sliceN_app_mid _ _ (le_enc 8 (sh_min h))) by len.
    rewrite app_assoc, (sliceN_app_mid _ _ (le_enc 8 (sh_max h))) by len.
    rewrite app_assoc, (sliceN_app_mid _ _ (le_enc 4 (sh_ck h))) by len.
    cbn [or_panic rbind]. unfold U32, U64 in *.
    rewrite !le_dec_enc_u32, !le_dec_enc_u64 by assumption. destruct h; reflexivity.
  Qed.
  Lemma seg_hdr_bytes_eq : forall h, lenN (sh_magic h) = 4 ->
    seg_hdr_bytes h = seg_hdr_image h (repeat 0 10).
  Proof.
    intros h Hm. unfold seg_hdr_bytes. fold (seg_fields_of h).
    rewrite resize0_pad; rewrite lenN_app, lenN_seg_fields, lenN_le_enc, seg_hs by assumption; [|discriminate].
    unfold seg_hdr_image. now rewrite <- app_assoc.
  Qed.

  (* the two size fields come back as whatever their eight bytes hold: no reader looks at them *)
  Lemma seg_ftr_parse : forall ck us cs m, ck < U32 -> lenN m = 4 ->
    seg_ftr_from_bytes (seg_ftr_image ck us cs m) =
    if bytes_eqb m SEGMENT_FOOTER_MAGIC
    then Ok (SegFtr ck (le_dec (le_enc 8 us)) (le_dec (le_enc 8 cs)) m) else Err EMagic.
  Proof.
    intros ck us cs m Hck Hm. unfold seg_ftr_from_bytes.
    rewrite lenN_seg_ftr_image, seg_fs, N.ltb_irrefl by assumption. unfold seg_ftr_image.
    rewrite (sliceN_app_head _ (le_enc 4 ck)) by len.
    rewrite (sliceN_app_mid _ _ (le_enc 8 us)) by len.
    rewrite app_assoc, (sliceN_app_mid _ _ (le_enc 8 cs)) by len.
    rewrite app_assoc, (sliceN_app_end _ _ m) by len.
    cbn [or_panic rbind]. rewrite le_dec_enc_u32 by exact Hck.
    now destruct (bytes_eqb m SEGMENT_FOOTER_MAGIC).
  Qed.
  Lemma seg_ftr_from_bytes_total : forall fb, fine (seg_ftr_from_bytes fb).
  Proof.
    intros fb. unfold seg_ftr_from_bytes. rewrite seg_fs.
    destruct (N.ltb_spec (lenN fb) 24); [split; discriminate|].
    rewrite !sliceN_ok by lia. cbn [or_panic rbind]. destruct (negb _); split; discriminate.
  Qed.

  Lemma seg_open_image : forall h pad rd fb, seg_hdr_wf h -> lenN pad = 10 -> lenN fb = 24 ->
    seg_open (seg_hdr_image h pad ++ rd ++ fb) =
    (do _ <- seg_hdr_validate crc h;
     do ft <- seg_ftr_from_bytes fb;
     if negb (sh_flags h =? 0) then Err ECompression else Ok (Seg h ft rd)).
  Proof.
    intros h pad rd fb Hwf Hp Hf. pose proof (lenN_seg_hdr_image h pad (proj1 Hwf) Hp) as Lh.
    unfold Codec.seg_open. rewrite seg_hs, seg_fs, !lenN_app, Lh, Hf, ltb_false by lia.
    rewrite (sliceN_app_head _ (seg_hdr_image h pad)) by auto. cbn [or_panic rbind].
    rewrite seg_hdr_parse by assumption.
    rewrite (sliceN_app_mid _ _ rd fb 40), app_assoc, (sliceN_app_end _ _ fb) by len.
    reflexivity.
  Qed.

  Lemma rec_loop_step : forall f remaining d, remaining <> 0 -> d <> [] ->
    rec_loop (S f) remaining d =
    if lenN d <? 4 then Err ETooShort else
    do lb <- or_panic (sliceN 0 4 d);
    if lenN (dropN 4 d) <? le_dec lb then Err ETooShort else
    if deser_ok (takeN (le_dec lb) (dropN 4 d))
    then do r <- rec_loop f (remaining - 1) (dropN (le_dec lb) (dropN 4 d));
         Ok (takeN (le_dec lb) (dropN 4 d) :: r)
    else Err ESerial.
  Proof.
    intros f remaining d Hr Hd. cbn [Codec.rec_loop]. apply N.eqb_neq in Hr. rewrite Hr.
    now destruct d.
  Qed.

  Lemma rec_loop_short : forall f remaining d, remaining <> 0 -> lenN d < 4 ->
    rec_loop (S f) remaining d = Err ETooShort.
  Proof.
    intros f remaining d Hr Hd. cbn [Codec.rec_loop]. apply N.eqb_neq in Hr. apply N.ltb_lt in Hd.
    rewrite Hr, Hd. now destruct d.
  Qed.

  (* a length field followed by any bytes [q]: a whole record in front, or a cut inside one *)
  Lemma rec_loop_framed : forall f remaining p q, remaining <> 0 -> payload_ok p ->
    rec_loop (S f) remaining (le_enc 4 (lenN p) ++ q) =
    if lenN q <? lenN p then Err ETooShort else
    if deser_ok (takeN (lenN p) q)
    then do r <- rec_loop f (remaining - 1) (dropN (lenN p) q); Ok (takeN (lenN p) q :: r)
    else Err ESerial.
  Proof.
    intros f remaining p q Hr Hp. rewrite rec_loop_step by (auto; discriminate).
    rewrite lenN_app, lenN_le_enc, ltb_false by lia.
    rewrite (sliceN_app_head _ (le_enc 4 (lenN p))), (dropN_app_exact' _ 4 (le_enc 4 (lenN p))) by len.
    cbn [or_panic rbind]. now rewrite le_dec_enc_u32 by exact Hp.
  Qed.

  Lemma rec_loop_record : forall f remaining p rest, remaining <> 0 -> payload_ok p ->
    rec_loop (S f) remaining (seg_record p ++ rest) =
    if deser_ok p then do r <- rec_loop f (remaining - 1) rest; Ok (p :: r) else Err ESerial.
  Proof.
    intros f remaining p rest Hr Hp. unfold seg_record. rewrite <- app_assoc, rec_loop_framed by assumption.
    now rewrite lenN_app, takeN_app_exact, dropN_app_exact, ltb_false by lia.
  Qed.

  Lemma rec_loop_ok : forall ps f,
    Forall (fun p => payload_ok p /\ deser_ok p = true) ps ->
    (length (concat (map seg_record ps)) < f)%nat ->
    rec_loop f (lenN ps) (concat (map seg_record ps)) = Ok ps.
  Proof.
    induction ps as [|p r IH]; intros f Hall Hf; (destruct f; [lia|]); [reflexivity|].
    inversion Hall as [|? ? [Hp Hd] Hr]; subst. cbn [map concat] in *.
    rewrite app_length, length_seg_record in Hf.
    rewrite rec_loop_record, Hd, lenN_cons, N.add_comm, N.add_sub, IH by (auto; len).
    reflexivity.
  Qed.

  Lemma rec_loop_truncated : forall ps (k f : nat),
    Forall payload_ok ps ->
    (k < length (concat (map seg_record ps)))%nat -> (k < f)%nat ->
    exists e, rec_loop f (lenN ps) (firstn k (concat (map seg_record ps))) = Err e.
  Proof.
    induction ps as [|p r IH]; intros k f Hall Hk Hf; cbn [map concat] in *; [cbn in Hk; lia|].
    inversion Hall as [|? ? Hp Hr]; subst. destruct f; [lia|].
    assert (Hn : lenN (p :: r) <> 0) by len.
    rewrite app_length, length_seg_record in Hk.
    destruct (le_lt_dec (4 + length p) k) as [Hge|Hlt].
    - (* the first record is whole *)
      rewrite firstn_app_split, rec_loop_record, lenN_cons, N.add_comm, N.add_sub
        by (rewrite ?length_seg_record; assumption).
      destruct (deser_ok p); [|eexists; reflexivity].
      destruct (IH (k - length (seg_record p))%nat f Hr) as [e ->];
        [rewrite length_seg_record; lia ..|eexists; reflexivity].
    - (* the cut is inside the first record: before or after its length field *)
      rewrite firstn_app_le by (rewrite length_seg_record; lia).
      destruct (le_lt_dec 4 k) as [H4|H4].
      + unfold seg_record. rewrite firstn_app_split, le_enc_length, rec_loop_framed
          by (rewrite ?le_enc_length; assumption).
        destruct (N.ltb_spec (lenN (firstn (k - 4) p)) (lenN p)) as [_|H]; [eexists; reflexivity|].
        unfold lenN in H. rewrite firstn_length in H. lia.
      + rewrite rec_loop_short; [eexists; reflexivity|assumption|].
        unfold lenN. rewrite firstn_length. lia.
  Qed.

  Definition seg_hdr_valid (h : seg_hdr) : Prop :=
    sh_magic h = SEGMENT_MAGIC /\ sh_version h = SEGMENT_VERSION /\ sh_ck h = crc (seg_fields_of h).

  Lemma seg_hdr_validate_ok : forall h, seg_hdr_valid h -> seg_hdr_validate crc h = Ok tt.
  Proof.
    intros h (Hm & Hv & Hc). unfold seg_hdr_validate, seg_hdr_checksum. fold (seg_fields_of h).
    now rewrite Hm, Hv, Hc, bytes_eqb_refl, !N.eqb_refl.
  Qed.
  Lemma seg_hdr_validate_total : forall h, fine (seg_hdr_validate crc h).
  Proof.
    intros h. unfold seg_hdr_validate. repeat (destruct (negb _); [split; discriminate|]). split; discriminate.
  Qed.

  Lemma seg_read_frame : forall h pad rd fck us cs m,
    seg_hdr_wf h -> lenN pad = 10 -> fck < U32 -> lenN m = 4 ->
    seg_read (seg_hdr_image h pad ++ rd ++ seg_ftr_image fck us cs m) =
    (do _ <- seg_hdr_validate crc h;
     if negb (bytes_eqb m SEGMENT_FOOTER_MAGIC) then Err EMagic else
     if negb (sh_flags h =? 0) then Err ECompression else
     if negb (crc rd =? fck) then Err EChecksum else
     do ps <- rec_loop (S (length rd)) (sh_count h) rd; Ok (h, ps)).
  Proof.
    intros h pad rd fck us cs m Hwf Hp Hck Hm. unfold Codec.seg_read.
    rewrite seg_open_image, seg_ftr_parse by (assumption || now apply lenN_seg_ftr_image).
    destruct (seg_hdr_validate crc h) as [[]| |]; [cbn [rbind]|reflexivity ..].
    destruct (bytes_eqb m _); [cbn [negb rbind]|reflexivity].
    destruct (negb (sh_flags h =? 0)); [reflexivity|cbn [rbind]].
    unfold seg_validate, seg_records. cbn [sg_data sg_ftr sg_hdr sf_ck]. now destruct (crc rd =? fck).
  Qed.

  Lemma seg_read_image : forall h pad ps us cs,
    seg_hdr_wf h -> seg_hdr_valid h -> sh_flags h = 0 -> sh_count h = lenN ps ->
    lenN pad = 10 -> Forall (fun p => payload_ok p /\ deser_ok p = true) ps ->
    seg_read (seg_image h pad ps (crc (concat (map seg_record ps))) us cs SEGMENT_FOOTER_MAGIC) = Ok (h, ps).
  Proof using crc_u32.
    intros h pad ps us cs Hwf Hv Hfl Hcnt Hpad Hall. unfold seg_image.
    rewrite seg_read_frame, seg_hdr_validate_ok, bytes_eqb_refl, Hfl, !N.eqb_refl, Hcnt, rec_loop_ok
      by (auto; reflexivity).
    reflexivity.
  Qed.

  Lemma seg_prefix_rejected : forall h pad ps fb (k : nat),
    seg_hdr_wf h -> sh_count h = lenN ps ->
    lenN pad = 10 -> Forall payload_ok ps -> lenN fb = 24 ->
    let img := seg_hdr_image h pad ++ concat (map seg_record ps) ++ fb in
    (k < length img)%nat -> exists e, seg_read (firstn k img) = Err e.
  Proof.
    intros h pad ps fb k Hwf Hcnt Hpad Hall Hfb img Hk.
    pose proof (lenN_seg_hdr_image h pad (proj1 Hwf) Hpad) as Lh.
    unfold lenN in Lh, Hfb. unfold img in Hk. rewrite !app_length in Hk.
    destruct (le_lt_dec 64 k) as [H64|H64].   (* 64 = header + footer *)
    - (* the prefix keeps the header, a strict prefix of the records and 24 trailing bytes *)
      unfold img. rewrite firstn_app_split by lia.
      destruct (firstn_app_last _ (concat (map seg_record ps)) fb (k - length (seg_hdr_image h pad)) 24)
        as (t & -> & Lt); [lia ..|].
      unfold Codec.seg_read. rewrite seg_open_image by (auto; unfold lenN; lia).
      destruct (seg_hdr_validate_total h) as [Hv _], (seg_ftr_from_bytes_total t) as [Hp _].
      destruct (seg_hdr_validate crc h) as [[]|e|]; [cbn [rbind]|eexists; reflexivity|congruence].
      destruct (seg_ftr_from_bytes t) as [ft|e|]; [cbn [rbind]|eexists; reflexivity|congruence].
      destruct (negb (sh_flags h =? 0)); [eexists; reflexivity|].
      unfold seg_validate, seg_records. cbn [rbind sg_data sg_ftr sg_hdr].
      destruct (crc _ =? _); [cbn [rbind]|eexists; reflexivity]. rewrite Hcnt.
      edestruct (rec_loop_truncated ps) as [e ->]; [eassumption|..|eexists; reflexivity].
      + lia.
      + rewrite firstn_length. lia.
    - exists ETooShort. unfold Codec.seg_read, Codec.seg_open. rewrite seg_hs, seg_fs.
      destruct (N.ltb_spec (lenN (firstn k img)) (40 + 24)) as [_|H]; [reflexivity|].
      unfold lenN in H. rewrite firstn_length in H. lia.
  Qed.

  Lemma fold_min_le : forall l a, fold_left N.min l a <= a.
  Proof. induction l as [|x r IH]; intros a; cbn [fold_left]; [lia|]. specialize (IH (N.min a x)). lia. Qed.
  Lemma fold_max_lt : forall l a b, a < b -> Forall (fun x => x < b) l -> fold_left N.max l a < b.
  Proof.
    induction l as [|x r IH]; intros a b Ha Hl; cbn [fold_left]; auto.
    inversion Hl; subst. apply IH; auto. lia.
  Qed.

  Definition rec_wf (r : N * bytes) : Prop := fst r < U64 /\ payload_ok (snd r) /\ deser_ok (snd r) = true.

  Lemma rec_wf_payloads : forall recs, Forall rec_wf recs ->
    Forall (fun p => payload_ok p /\ deser_ok p = true) (map snd recs).
  Proof. intros recs H. apply Forall_map. eapply Forall_impl; [|exact H]. now intros r (_ & Hr). Qed.

  Lemma seg_records_bytes_eq : forall recs,
    seg_records_bytes recs = concat (map seg_record (map snd recs)).
  Proof. intros. unfold seg_records_bytes. now rewrite map_map. Qed.

  Definition seg_hdr_of (recs : list (N * bytes)) : seg_hdr :=
    seg_hdr_new crc (lenN recs) (fold_left N.min (map fst recs) U64_MAX) (fold_left N.max (map fst recs) 0).

  Lemma seg_hdr_of_wf : forall recs, lenN recs < U32 -> Forall rec_wf recs ->
    seg_hdr_wf (seg_hdr_of recs) /\ seg_hdr_valid (seg_hdr_of recs) /\
    sh_flags (seg_hdr_of recs) = 0 /\ sh_count (seg_hdr_of recs) = lenN (map snd recs).
  Proof using crc_u32.
    intros recs Hn Hall. unfold seg_hdr_of, seg_hdr_new, seg_hdr_wf, seg_hdr_valid, seg_hdr_checksum, seg_fields_of.
    cbn [sh_magic sh_version sh_flags sh_count sh_min sh_max sh_ck].
    repeat split; auto.
    - pose proof (fold_min_le (map fst recs) U64_MAX). unfold U64, U64_MAX in *. lia.
    - apply fold_max_lt; [reflexivity|]. apply Forall_map. eapply Forall_impl; [|exact Hall]. now intros r [Hr _].
    - unfold lenN. now rewrite map_length.
  Qed.

  Lemma seg_write_image : forall recs, recs <> [] -> lenN recs < U32 ->
    Codec.seg_write crc recs =
    Ok (seg_image (seg_hdr_of recs) (repeat 0 10) (map snd recs)
                  (crc (seg_records_bytes recs)) (lenN (seg_records_bytes recs))
                  (lenN (seg_records_bytes recs)) SEGMENT_FOOTER_MAGIC).
  Proof.
    intros recs Hne Hn. unfold Codec.seg_write. destruct recs as [|r0 rs]; [congruence|].
    set (recs := r0 :: rs) in *. unfold U32 in Hn. rewrite (N.mod_small _ _ Hn).
    fold (seg_hdr_of recs). rewrite seg_hdr_bytes_eq by reflexivity.
    unfold seg_image. now rewrite seg_records_bytes_eq.
  Qed.

  (* no bound on the byte size of the batch: the footer's size fields are written and never read *)
  Lemma seg_write_read : forall recs img,
    recs <> [] -> lenN recs < U32 -> Forall rec_wf recs ->
    Codec.seg_write crc recs = Ok img ->
    seg_read img = Ok (seg_hdr_of recs, map snd recs).
  Proof using crc_u32.
    intros recs img Hne Hn Hall Hw. rewrite seg_write_image in Hw by assumption. injection Hw as <-.
    destruct (seg_hdr_of_wf recs Hn Hall) as (H1 & H2 & H3 & H4).
    rewrite seg_records_bytes_eq. now apply seg_read_image; try apply rec_wf_payloads.
  Qed.

  Lemma segment_roundtrip : forall recs img,
    recs <> [] -> lenN recs < U32 -> Forall rec_wf recs -> lenN (seg_records_bytes recs) < U64 ->
    Codec.seg_write crc recs = Ok img ->
    seg_read img = Ok (seg_hdr_of recs, map snd recs).
  Proof using crc_u32. intros recs img Hne Hn Hall _. now apply seg_write_read. Qed.

  Lemma segment_prefix_rejected : forall recs img (k : nat),
    recs <> [] -> lenN recs < U32 -> Forall rec_wf recs ->
    Codec.seg_write crc recs = Ok img -> (k < length img)%nat ->
    exists e, seg_read (firstn k img) = Err e.
  Proof using crc_u32.
    intros recs img k Hne Hn Hall Hw. rewrite seg_write_image in Hw by assumption. injection Hw as <-.
    destruct (seg_hdr_of_wf recs Hn Hall) as (H1 & H2 & H3 & H4).
    apply seg_prefix_rejected; try assumption; try reflexivity.
    eapply Forall_impl; [|exact (rec_wf_payloads recs Hall)]. now intros p [Hp _].
  Qed.

  Lemma seg_data_corruption_rejected : forall h pad rd' fck us cs,
    seg_hdr_wf h -> seg_hdr_valid h -> sh_flags h = 0 -> lenN pad = 10 ->
    fck < U32 -> crc rd' <> fck ->
    seg_read (seg_hdr_image h pad ++ rd' ++ seg_ftr_image fck us cs SEGMENT_FOOTER_MAGIC) = Err EChecksum.
  Proof.
    intros h pad rd' fck us cs Hwf Hv Hfl Hpad Hck Hne. apply N.eqb_neq in Hne.
    now rewrite seg_read_frame, seg_hdr_validate_ok, bytes_eqb_refl, Hfl, Hne.
  Qed.
  Lemma seg_footer_magic_rejected : forall h pad rd fck us cs m,
    seg_hdr_wf h -> seg_hdr_valid h -> lenN pad = 10 ->
    fck < U32 -> lenN m = 4 -> m <> SEGMENT_FOOTER_MAGIC ->
    seg_read (seg_hdr_image h pad ++ rd ++ seg_ftr_image fck us cs m) = Err EMagic.
  Proof.
    intros h pad rd fck us cs m Hwf Hv Hpad Hck Hm Hne. apply bytes_eqb_neq in Hne.
    now rewrite seg_read_frame, seg_hdr_validate_ok, Hne.
  Qed.
  Lemma seg_header_corruption_rejected : forall h' pad rd fb,
    seg_hdr_wf h' -> lenN pad = 10 -> lenN fb = 24 ->
    sh_ck h' <> crc (seg_fields_of h') ->
    exists e, seg_read (seg_hdr_image h' pad ++ rd ++ fb) = Err e /\
              (e = EMagic \/ e = EVersion \/ e = EChecksum).
  Proof.
    intros h' pad rd fb Hwf Hpad Hfb Hne. apply N.eqb_neq in Hne. unfold Codec.seg_read.
    rewrite seg_open_image by assumption.
    unfold seg_hdr_validate, seg_hdr_checksum. fold (seg_fields_of h'). rewrite Hne.
    destruct (negb (bytes_eqb (sh_magic h') SEGMENT_MAGIC)); [exists EMagic; cbn; auto|].
    destruct (negb (sh_version h' =? SEGMENT_VERSION)); [exists EVersion|exists EChecksum]; cbn; auto.
  Qed.

  Lemma rec_loop_total : forall f remaining d, (length d < f)%nat -> fine (rec_loop f remaining d).
  Proof.
    induction f as [|f IH]; intros remaining d Hf; [lia|].
    destruct (N.eq_dec remaining 0) as [->|Hr]; [cbn; split; discriminate|].
    destruct (N.lt_ge_cases (lenN d) 4) as [H4|H4]; [rewrite rec_loop_short by assumption; split; discriminate|].
    rewrite rec_loop_step by (try intros ->; auto).
    apply N.ltb_ge in H4 as E. rewrite E, (sliceN_ok _ 0 4) by lia. cbn [or_panic rbind].
    destruct (lenN (dropN 4 d) <? _); [split; discriminate|]. destruct (deser_ok _); [|split; discriminate].
    apply fine_bind; [|split; discriminate]. apply IH.
    pose proof (lenN_dropN _ 4 d). unfold lenN, dropN in *. rewrite skipn_length. lia.
  Qed.

  Lemma seg_hdr_from_bytes_total : forall hb, fine (seg_hdr_from_bytes hb).
  Proof.
    intros hb. unfold seg_hdr_from_bytes, indexN. rewrite seg_hs.
    destruct (N.ltb_spec (lenN hb) 40); [split; discriminate|].
    rewrite !sliceN_ok, !ltb_true by lia. cbn [or_panic rbind]. split; discriminate.
  Qed.

  Lemma seg_open_total : forall img, fine (seg_open img).
  Proof.
    intros img. unfold Codec.seg_open. rewrite seg_hs, seg_fs.
    destruct (N.ltb_spec (lenN img) (40 + 24)) as [|E]; [split; discriminate|].
    rewrite (sliceN_ok _ 0 40), (sliceN_ok _ (lenN img - 24)), (sliceN_ok _ 40) by lia. cbn [or_panic rbind].
    apply fine_bind; [apply seg_hdr_from_bytes_total|intros h].
    apply fine_bind; [apply seg_hdr_validate_total|intros _].
    apply fine_bind; [apply seg_ftr_from_bytes_total|intros ft].
    destruct (negb _); split; discriminate.
  Qed.

  Lemma seg_read_total : forall img, fine (seg_read img).
  Proof.
    intros img. unfold Codec.seg_read. apply fine_bind; [apply seg_open_total|]. intros s.
    apply fine_bind; [unfold seg_validate; destruct (_ =? _); split; discriminate|]. intros _.
    apply fine_bind; [apply rec_loop_total; lia|split; discriminate].
  Qed.

  Definition chk_hdr_valid (h : chk_hdr) : Prop :=
    ch_magic h = CHECKPOINT_MAGIC /\ ch_version h = CHECKPOINT_VERSION /\ ch_ck h = crc (chk_fields_of h).

  Lemma chk_hdr_parse : forall h pad rsv, chk_hdr_wf h -> lenN pad = 2 -> lenN rsv = 12 ->
    chk_hdr_from_buf (chk_hdr_image h pad rsv) = Ok h.
  Proof.
    intros h pad rsv (Hm & Hk & Ht & Hl & Hck) Hp Hr. unfold U32, U64 in *.
    unfold chk_hdr_from_buf, chk_hdr_image.
    rewrite (sliceN_app_head _ (ch_magic h)), (indexN_app_mid _ [_; _] _ 4 0), (indexN_app_mid _ [_; _] _ 5 1) by len.
    rewrite 2 app_assoc, (sliceN_app_mid _ _ (le_enc 8 (ch_keys h))) by len.
    rewrite app_assoc, (sliceN_app_mid _ _ (le_enc 8 (ch_ts h))) by len.
    rewrite app_assoc, (sliceN_app_mid _ _ (le_enc 8 (ch_last h))) by len.
    rewrite 2 app_assoc, (sliceN_app_end _ _ (le_enc 4 (ch_ck h))) by len.
    cbn [or_panic rbind]. rewrite !le_dec_enc_u64, le_dec_enc_u32 by assumption. destruct h; reflexivity.
  Qed.

  Lemma chk_hdr_validate_ok : forall h, chk_hdr_valid h -> chk_hdr_validate crc h = Ok tt.
  Proof.
    intros h (Hm & Hv & Hc). unfold chk_hdr_validate, chk_hdr_checksum. fold (chk_fields_of h).
    now rewrite Hm, Hv, Hc, bytes_eqb_refl, !N.eqb_refl.
  Qed.

  Lemma chk_open_image : forall h pad rsv rest, chk_hdr_wf h -> lenN pad = 2 -> lenN rsv = 12 ->
    chk_open crc (chk_hdr_image h pad rsv ++ rest) = (do _ <- chk_hdr_validate crc h; Ok h).
  Proof.
    intros h pad rsv rest Hwf Hp Hr. pose proof (lenN_chk_hdr_image h pad rsv (proj1 Hwf) Hp Hr) as Lh.
    unfold chk_open. rewrite chk_hs, lenN_app, Lh, ltb_false by lia.
    rewrite (sliceN_app_head _ (chk_hdr_image h pad rsv)) by auto. cbn [or_panic rbind].
    now rewrite chk_hdr_parse.
  Qed.

  Lemma chk_validate_image : forall hb h data dck dsz fck trailing,
    lenN hb = 48 -> lenN data < U32 -> dck < U32 -> dsz < U64 -> fck < U32 ->
    chk_validate crc (hb ++ chk_body (lenN data) data dck dsz fck trailing) h =
    if negb (fck =? crc (le_enc 4 dck ++ le_enc 8 dsz)) then Err EChecksum else
    if N.odd (ch_flags h) then Err ECompression else
    if negb (crc data =? dck) then Err EChecksum else
    if negb (lenN data =? dsz) then Err EFormat else Ok tt.
  Proof.
    intros hb h data dck dsz fck trailing Hhb Hn Hdck Hdsz Hfck. unfold U32, U64 in *.
    unfold chk_validate, chk_body. rewrite chk_hs, chk_fs.
    set (ftr := le_enc 4 dck ++ le_enc 8 dsz ++ le_enc 4 fck).
    assert (Lf : lenN ftr = 16) by (unfold ftr; len).
    rewrite !lenN_app, lenN_le_enc, Hhb, Lf, ltb_false by lia.
    rewrite (sliceN_app_mid _ hb (le_enc 4 (lenN data))) by len. cbn [or_panic rbind].
    rewrite le_dec_enc_u32, ltb_false by (assumption || lia).
    rewrite app_assoc, (sliceN_app_mid _ _ data _ (48 + 4)), app_assoc, (sliceN_app_end _ _ (ftr ++ trailing)) by len.
    cbn [or_panic rbind]. rewrite lenN_app, Lf, ltb_false by lia.
    unfold ftr. rewrite <- !app_assoc.
    rewrite (takeN_app_exact' _ 4 (le_enc 4 dck)), (dropN_app_exact' _ 4 (le_enc 4 dck)),
      (takeN_app_exact' _ 8 (le_enc 8 dsz)) by len.
    rewrite (app_assoc (le_enc 4 dck)), (dropN_app_exact' _ 12), (takeN_app_exact' _ 4 (le_enc 4 fck)) by len.
    now rewrite !le_dec_enc_u32, le_dec_enc_u64 by assumption.
  Qed.

  Lemma chk_load_image : forall hb h data rest,
    lenN hb = 48 -> lenN data < U32 ->
    chk_load deser_ok (hb ++ le_enc 4 (lenN data) ++ data ++ rest) h =
    if N.odd (ch_flags h) then Err ECompression else if deser_ok data then Ok data else Err ESerial.
  Proof.
    intros hb h data rest Hhb Hn. unfold chk_load. rewrite chk_hs, !lenN_app, lenN_le_enc, Hhb, ltb_false by lia.
    rewrite (sliceN_app_mid _ hb (le_enc 4 (lenN data))) by len. cbn [or_panic rbind].
    rewrite le_dec_enc_u32, ltb_false by (exact Hn || lia).
    now rewrite app_assoc, (sliceN_app_mid _ _ data) by len.
  Qed.

  Lemma chk_read_frame : forall h pad rsv data dck dsz fck trailing,
    chk_hdr_wf h -> lenN pad = 2 -> lenN rsv = 12 -> lenN data < U32 -> dck < U32 -> dsz < U64 -> fck < U32 ->
    chk_read (chk_image h pad rsv data dck dsz fck trailing) =
    (do _ <- chk_hdr_validate crc h;
     if negb (fck =? crc (le_enc 4 dck ++ le_enc 8 dsz)) then Err EChecksum else
     if N.odd (ch_flags h) then Err ECompression else
     if negb (crc data =? dck) then Err EChecksum else
     if negb (lenN data =? dsz) then Err EFormat else
     if deser_ok data then Ok (h, data) else Err ESerial).
  Proof.
    intros h pad rsv data dck dsz fck trailing Hwf Hp Hr Hn Hdck Hdsz Hfck.
    pose proof (lenN_chk_hdr_image h pad rsv (proj1 Hwf) Hp Hr) as Lh.
    unfold Codec.chk_read, chk_image. rewrite chk_open_image by assumption.
    destruct (chk_hdr_validate crc h) as [[]| |]; [cbn [rbind]|reflexivity ..].
    rewrite chk_validate_image by assumption. unfold chk_body. rewrite chk_load_image by assumption.
    destruct (negb (fck =? _)); [reflexivity|]. destruct (N.odd _); [reflexivity|].
    destruct (negb (crc data =? dck)); [reflexivity|]. destruct (negb (lenN data =? dsz)); [reflexivity|].
    now destruct (deser_ok data).
  Qed.

  Lemma chk_read_image : forall h pad rsv data trailing,
    chk_hdr_wf h -> chk_hdr_valid h -> N.odd (ch_flags h) = false ->
    lenN pad = 2 -> lenN rsv = 12 -> lenN data < U32 -> deser_ok data = true ->
    chk_read (chk_image h pad rsv data (crc data) (lenN data)
                        (crc (le_enc 4 (crc data) ++ le_enc 8 (lenN data))) trailing) = Ok (h, data).
  Proof using crc_u32.
    intros h pad rsv data trailing Hwf Hv Hfl Hp Hr Hn Hd.
    rewrite chk_read_frame, chk_hdr_validate_ok, !N.eqb_refl, Hfl, Hd; auto.
    unfold U32, U64 in *. lia.
  Qed.

  Lemma chk_write_image : forall keys ts last data,
    Codec.chk_write crc keys ts last data =
    chk_image (chk_hdr_new crc keys ts last) [0; 0] (repeat 0 12) data (crc data) (lenN data)
              (crc (le_enc 4 (crc data) ++ le_enc 8 (lenN data))) [].
  Proof.
    intros. unfold Codec.chk_write, chk_image, chk_body, chk_ftr_bytes. now rewrite !app_nil_r.
  Qed.
  Lemma chk_hdr_new_wf : forall keys ts last, keys < U64 -> ts < U64 -> last < U64 ->
    chk_hdr_wf (chk_hdr_new crc keys ts last) /\ chk_hdr_valid (chk_hdr_new crc keys ts last) /\
    N.odd (ch_flags (chk_hdr_new crc keys ts last)) = false.
  Proof using crc_u32.
    intros. unfold chk_hdr_new, chk_hdr_wf, chk_hdr_valid, chk_hdr_checksum, chk_fields_of.
    cbn [ch_magic ch_version ch_flags ch_keys ch_ts ch_last ch_ck]. repeat split; auto using crc_u32.
  Qed.

  Lemma checkpoint_roundtrip : forall keys ts last data,
    keys < U64 -> ts < U64 -> last < U64 -> lenN data < U32 -> deser_ok data = true ->
    chk_read (Codec.chk_write crc keys ts last data) = Ok (chk_hdr_new crc keys ts last, data).
  Proof using crc_u32.
    intros keys ts last data Hk Ht Hl Hn Hd. rewrite chk_write_image.
    destruct (chk_hdr_new_wf keys ts last Hk Ht Hl) as (A & B & C).
    now apply chk_read_image.
  Qed.

  Lemma chk_open_short : forall img, lenN img < 48 -> chk_open crc img = Err ETooShort.
  Proof. intros img H. apply N.ltb_lt in H. unfold chk_open. now rewrite chk_hs, H. Qed.
  Lemma chk_validate_short_len : forall img h, lenN img < 48 + 4 -> chk_validate crc img h = Err ETooShort.
  Proof. intros img h H. apply N.ltb_lt in H. unfold chk_validate. now rewrite chk_hs, H. Qed.
  Lemma chk_validate_short_data : forall hb h n q, lenN hb = 48 -> n < U32 -> lenN q < n + 16 ->
    chk_validate crc (hb ++ le_enc 4 n ++ q) h = Err ETooShort.
  Proof.
    intros hb h n q Hhb Hn Hq. unfold chk_validate. rewrite chk_hs, chk_fs, !lenN_app, lenN_le_enc, Hhb.
    destruct (N.ltb_spec (48 + (N.of_nat 4 + lenN q)) (48 + 4)); [reflexivity|].
    rewrite (sliceN_app_mid _ hb (le_enc 4 n)) by len. cbn [or_panic rbind].
    rewrite le_dec_enc_u32 by exact Hn.
    destruct (N.ltb_spec (48 + (N.of_nat 4 + lenN q)) (48 + 4 + n + 16)); [reflexivity|lia].
  Qed.

  Lemma chk_prefix_rejected : forall h pad rsv data dck dsz fck (k : nat),
    chk_hdr_wf h -> chk_hdr_valid h -> lenN pad = 2 -> lenN rsv = 12 -> lenN data < U32 ->
    let img := chk_image h pad rsv data dck dsz fck [] in
    (k < length img)%nat -> chk_read (firstn k img) = Err ETooShort.
  Proof.
    intros h pad rsv data dck dsz fck k Hwf Hv Hp Hr Hn img Hk.
    pose proof (lenN_chk_hdr_image h pad rsv (proj1 Hwf) Hp Hr) as Lh.
    assert (Li : lenN img = 48 + 4 + lenN data + 16) by (unfold img, chk_image, chk_body; len).
    unfold lenN in Li. unfold Codec.chk_read.
    destruct (le_lt_dec 48 k) as [H48|H48].   (* 48 = header *)
    - unfold img, chk_image. rewrite firstn_app_split by (unfold lenN in Lh; lia).
      rewrite chk_open_image, chk_hdr_validate_ok by assumption. cbn [rbind].
      destruct (le_lt_dec 52 k) as [H52|H52].   (* 52 = header + length field *)
      + unfold chk_body. rewrite firstn_app_split by (unfold lenN in Lh; rewrite le_enc_length; lia).
        rewrite chk_validate_short_data; [reflexivity|assumption ..|].
        unfold lenN in *. rewrite firstn_length, le_enc_length. lia.
      + rewrite chk_validate_short_len; [reflexivity|].
        rewrite lenN_app, Lh. unfold lenN in *. rewrite firstn_length. lia.
    - rewrite chk_open_short; [reflexivity|]. unfold lenN. rewrite firstn_length. lia.
  Qed.

  Lemma checkpoint_prefix_rejected : forall keys ts last data (k : nat),
    keys < U64 -> ts < U64 -> last < U64 -> lenN data < U32 ->
    (k < length (Codec.chk_write crc keys ts last data))%nat ->
    chk_read (firstn k (Codec.chk_write crc keys ts last data)) = Err ETooShort.
  Proof using crc_u32.
    intros keys ts last data k Hk Ht Hl Hn. rewrite chk_write_image.
    destruct (chk_hdr_new_wf keys ts last Hk Ht Hl) as (A & B & C).
    now apply chk_prefix_rejected.
  Qed.

  Lemma chk_data_corruption_rejected : forall h pad rsv data' dck dsz trailing,
    chk_hdr_wf h -> chk_hdr_valid h -> N.odd (ch_flags h) = false ->
    lenN pad = 2 -> lenN rsv = 12 -> lenN data' < U32 -> dck < U32 -> dsz < U64 ->
    crc data' <> dck ->
    chk_read (chk_image h pad rsv data' dck dsz (crc (le_enc 4 dck ++ le_enc 8 dsz)) trailing) = Err EChecksum.
  Proof using crc_u32.
    intros h pad rsv data' dck dsz trailing Hwf Hv Hfl Hp Hr Hn Hdck Hdsz Hne. apply N.eqb_neq in Hne.
    now rewrite chk_read_frame, chk_hdr_validate_ok, N.eqb_refl, Hfl, Hne.
  Qed.
  Lemma chk_footer_corruption_rejected : forall h pad rsv data dck dsz fck trailing,
    chk_hdr_wf h -> chk_hdr_valid h -> lenN pad = 2 -> lenN rsv = 12 ->
    lenN data < U32 -> dck < U32 -> dsz < U64 -> fck < U32 ->
    fck <> crc (le_enc 4 dck ++ le_enc 8 dsz) ->
    chk_read (chk_image h pad rsv data dck dsz fck trailing) = Err EChecksum.
  Proof.
    intros h pad rsv data dck dsz fck trailing Hwf Hv Hp Hr Hn Hdck Hdsz Hfck Hne. apply N.eqb_neq in Hne.
    now rewrite chk_read_frame, chk_hdr_validate_ok, Hne.
  Qed.
  Lemma chk_header_corruption_rejected : forall h' pad rsv rest,
    chk_hdr_wf h' -> lenN pad = 2 -> lenN rsv = 12 ->
    ch_ck h' <> crc (chk_fields_of h') ->
    exists e, chk_read (chk_hdr_image h' pad rsv ++ rest) = Err e /\
              (e = EMagic \/ e = EVersion \/ e = EChecksum).
  Proof.
    intros h' pad rsv rest Hwf Hp Hr Hne. apply N.eqb_neq in Hne. unfold Codec.chk_read.
    rewrite chk_open_image by assumption.
    unfold chk_hdr_validate, chk_hdr_checksum. fold (chk_fields_of h'). rewrite Hne.
    destruct (negb (bytes_eqb (ch_magic h') CHECKPOINT_MAGIC)); [exists EMagic; cbn; auto|].
    destruct (negb (ch_version h' =? CHECKPOINT_VERSION)); [exists EVersion|exists EChecksum]; cbn; auto.
  Qed.

  Lemma chk_hdr_validate_total : forall h, fine (chk_hdr_validate crc h).
  Proof.
    intros h. unfold chk_hdr_validate. repeat (destruct (negb _); [split; discriminate|]). split; discriminate.
  Qed.
  Lemma chk_open_total : forall img, fine (chk_open crc img).
  Proof.
    intros img. unfold chk_open. rewrite chk_hs.
    destruct (N.ltb_spec (lenN img) 48) as [|E]; [split; discriminate|].
    rewrite (sliceN_ok _ 0 48) by (assumption || discriminate). cbn [or_panic rbind].
    set (b := takeN (48 - 0) (dropN 0 img)).
    assert (Lb : lenN b = 48) by (unfold b; rewrite lenN_takeN, lenN_dropN; lia).
    unfold chk_hdr_from_buf, sliceN, indexN. rewrite Lb.
    cbn [N.ltb N.leb N.compare Pos.compare Pos.compare_cont andb or_panic rbind].
    apply fine_bind; [apply chk_hdr_validate_total|split; discriminate].
  Qed.
  Lemma chk_load_total : forall img h, fine (chk_load deser_ok img h).
  Proof.
    intros img h. unfold chk_load. rewrite chk_hs.
    destruct (N.ltb_spec (lenN img) (48 + 4)); [split; discriminate|].
    rewrite (sliceN_ok _ 48 (48 + 4)) by lia. cbn [or_panic rbind].
    destruct (N.ltb_spec (lenN img) (48 + 4 + le_dec (takeN (48 + 4 - 48) (dropN 48 img)))); [split; discriminate|].
    rewrite sliceN_ok by lia. cbn [or_panic rbind].
    destruct (N.odd _); [|destruct (deser_ok _)]; split; discriminate.
  Qed.
  Lemma chk_validate_total : forall img h, fine (chk_validate crc img h).
  Proof.
    intros img h. unfold chk_validate. rewrite chk_hs, chk_fs.
    destruct (N.ltb_spec (lenN img) (48 + 4)); [split; discriminate|].
    rewrite (sliceN_ok _ 48 (48 + 4)) by lia. cbn [or_panic rbind].
    destruct (N.ltb_spec (lenN img) (48 + 4 + le_dec (takeN (48 + 4 - 48) (dropN 48 img)) + 16)); [split; discriminate|].
    rewrite (sliceN_ok _ _ (lenN img)), sliceN_ok by lia. cbn [or_panic rbind].
    destruct (_ <? 16); [split; discriminate|].
    destruct (negb _); [split; discriminate|]. destruct (N.odd _); [split; discriminate|].
    destruct (negb _); [split; discriminate|]. destruct (negb _); split; discriminate.
  Qed.
  Lemma chk_read_total : forall img, fine (chk_read img).
  Proof.
    intros img. unfold Codec.chk_read. apply fine_bind; [apply chk_open_total|intros h].
    apply fine_bind; [apply chk_validate_total|intros _].
    apply fine_bind; [apply chk_load_total|split; discriminate].
  Qed.
  Lemma chk_read_unchecked_total : forall img, fine (chk_read_unchecked crc deser_ok img).
  Proof.
    intros img. unfold chk_read_unchecked. apply fine_bind; [apply chk_open_total|intros h].
    apply fine_bind; [apply chk_load_total|split; discriminate].
  Qed.
End CodecProofs.

(* Regression witness of the defect repaired by repo commit 929bfe5: two records, the second
   imitating a footer for the first (its length, 24, is the CRC-32 of the first record, and its
   bytes 16..20 are the footer magic).  The image cut 24 bytes into the second record passes open
   and validate; without the [[] => Err ETooShort] arm of [rec_loop] it reads as one record. *)
Definition wit_p0 : bytes := [1; 53; 184; 116].
Definition wit_p1 : bytes := repeat 0 16 ++ [71; 69; 83; 82] ++ repeat 0 4.
Definition wit_recs : list (N * bytes) := [(1, wit_p0); (2, wit_p1)].
Definition wit_seg : bytes :=
  match seg_write crc32 wit_recs with Ok b => b | _ => [] end.

Lemma forged_footer_witness :
  seg_write crc32 wit_recs = Ok wit_seg /\
  (exists h, seg_read crc32 (fun _ => true) wit_seg = Ok (h, [wit_p0; wit_p1])) /\
  (72 < length wit_seg)%nat /\
  (* the cut image really ends in something that parses as a footer with a matching checksum *)
  (exists s, seg_open crc32 (firstn 72 wit_seg) = Ok s /\ seg_validate crc32 s = Ok tt) /\
  seg_read crc32 (fun _ => true) (firstn 72 wit_seg) = Err ETooShort.
Proof.
  split; [reflexivity|]. split; [eexists; vm_compute; reflexivity|]. split; [vm_compute; lia|].
  split; [eexists; split; vm_compute; reflexivity|]. vm_compute. reflexivity.
Qed.

Lemma crc32_u32_on : forall d, In d [seg_records_bytes wit_recs] -> crc32 d < U32.
Proof. intros d [<-|[]]. vm_compute. reflexivity. Qed.

Lemma rec_wf_example : Forall (rec_wf (fun _ => true)) wit_recs /\ wit_recs <> [] /\ lenN wit_recs < U32.
Proof. split; [|split; [discriminate|vm_compute; reflexivity]]. repeat constructor; vm_compute; reflexivity. Qed.
