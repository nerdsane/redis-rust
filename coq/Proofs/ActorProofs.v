(* Proofs for Model/Actor.v (property C02): the two checkers decide [linearizable_complete] for
   every machine; the invariant [Inv] of the actor protocol, from which everything said about a
   trace is read off (the Process events are linearization points); projection of a history to
   one key; batches of key-local primitives; the keyed store of the examples. *)
From Coq Require Import List Arith NArith ZArith Bool Lia Permutation Sorted.
From RV Require Import Lib.Hex Lib.ListFacts Model.Actor.
From RV Require Lib.Bytes.
Import ListNotations.

(* In this file an argument that a later hypothesis determines is implicit ([i_wait HI Hw],
   [picks_perm Hp]); the lemmas of Lib/ListFacts.v take all their arguments. *)
Local Set Implicit Arguments.
Local Unset Strict Implicit.

Lemma existsb_lazy_eq : forall A (f : A -> bool) l, existsb_lazy f l = existsb f l.
Proof. induction l as [|a t IH]; cbn; [reflexivity|]. rewrite IH. destruct (f a); reflexivity. Qed.

Lemma picks_perm : forall A (l : list A) x r, In (x, r) (picks l) -> Permutation (x :: r) l.
Proof.
  induction l as [|a t IH]; cbn; intros x r H; [contradiction|].
  destruct H as [H|H].
  - inversion H; subst. reflexivity.
  - apply in_map_iff in H. destruct H as [[y r'] [E H]]. cbn in E. inversion E; subst.
    apply IH in H. rewrite perm_swap. constructor. exact H.
Qed.

Lemma picks_in : forall A (l : list A) x, In x l -> exists r, In (x, r) (picks l).
Proof.
  induction l as [|a t IH]; cbn; intros x H; [contradiction|].
  destruct H as [H|H].
  - subst. eexists. left. reflexivity.
  - destruct (IH _ H) as [r Hr]. exists (a :: r). right.
    apply in_map_iff. exists (x, r). split; [reflexivity|exact Hr].
Qed.

Lemma picks_complete : forall A (l l' : list A) x,
  Permutation l (x :: l') -> exists r, In (x, r) (picks l) /\ Permutation r l'.
Proof.
  intros A l l' x H.
  assert (Hin : In x l) by (eapply Permutation_in; [symmetry; exact H|left; reflexivity]).
  destruct (picks_in Hin) as [r Hr]. exists r. split; [exact Hr|].
  apply picks_perm in Hr. eapply Permutation_cons_inv. etransitivity; [exact Hr|exact H].
Qed.

Lemma perms_sound : forall A fuel (l order : list A),
  length l <= fuel -> In order (perms l fuel) -> Permutation order l.
Proof.
  induction fuel as [|f IH]; intros l order Hl H.
  - destruct l; cbn in *; [|lia]. destruct H as [H|[]]. subst. constructor.
  - destruct l as [|a t].
    + cbn in H. destruct H as [H|[]]. subst. constructor.
    + cbn [perms] in H. apply in_flat_map in H. destruct H as [[x r] [Hp H]].
      apply in_map_iff in H. destruct H as [o' [E H]]. cbn in E. subst order.
      pose proof (picks_perm Hp) as P.
      assert (length r <= f).
      { apply Permutation_length in P. cbn in P, Hl. lia. }
      cbn in H. apply IH in H; [|assumption].
      etransitivity; [|exact P]. constructor. exact H.
Qed.

Lemma perms_complete : forall A (order l : list A),
  Permutation order l -> In order (perms l (length l)).
Proof.
  induction order as [|x order' IH]; intros l H.
  - apply Permutation_nil in H. subst. cbn. left. reflexivity.
  - destruct l as [|a t]; [symmetry in H; apply Permutation_nil in H; discriminate|].
    assert (H' : Permutation (a :: t) (x :: order')) by (symmetry; exact H).
    destruct (picks_complete H') as [r [Hr Pr]].
    cbn [length perms]. apply in_flat_map. exists (x, r). split; [exact Hr|].
    cbn. apply in_map.
    assert (El : length r = length t).
    { apply picks_perm in Hr. apply Permutation_length in Hr. cbn in Hr. lia. }
    rewrite <- El. apply IH. symmetry. exact Pr.
Qed.

Section HistProofs.
  Variable S Op Reply : Type.
  Variable step : S -> Op -> S * Reply.
  Notation orec := (oprec Op Reply).
  Notation legal := (legal S Op Reply step).
  Notation final := (final S Op Reply step).
  Notation linearizable := (linearizable S Op Reply step).
  Notation linearizable_complete := (linearizable_complete S Op Reply step).
  Notation lin_points := (lin_points S Op Reply step).
  Notation point_ok := (point_ok Op Reply).
  Notation minimal := (minimal Op Reply).

  Lemma legal_app : forall l1 l2 s,
    legal s (l1 ++ l2) <-> legal s l1 /\ legal (final s l1) l2.
  Proof.
    induction l1 as [|[op r] t IH]; cbn; intros l2 s; [tauto|].
    rewrite IH. tauto.
  Qed.
  Lemma final_app : forall l1 l2 s, final s (l1 ++ l2) = final (final s l1) l2.
  Proof. induction l1 as [|[op r] t IH]; cbn; intros; [reflexivity|apply IH]. Qed.

  Lemma rt_beforeb_spec : forall a b : orec, rt_beforeb a b = true <-> rt_before a b.
  Proof.
    intros a b. unfold rt_beforeb, rt_before. destruct (o_ret a).
    - apply Nat.ltb_lt.
    - split; [discriminate|contradiction].
  Qed.

  Lemma rt_ok_points : forall order : list (orec * nat),
    StronglySorted lt (map snd order) -> Forall point_ok order -> rt_ok (map fst order).
  Proof.
    induction order as [|[a pa] t IH]; cbn; intros Hs Hp; [exact I|].
    inversion Hs as [|? ? Hs' Hlt]; subst. inversion Hp as [|? ? [Hinv _] Hp']; subst.
    split; [|apply IH; assumption].
    intros b Hb Hrt. apply in_map_iff in Hb. destruct Hb as [[b' pb] [E Hb]]. cbn in E. subst b'.
    rewrite Forall_forall in Hlt, Hp'.
    assert (pa < pb) by (apply Hlt; apply in_map_iff; exists (b, pb); split; [reflexivity|exact Hb]).
    destruct (Hp' _ Hb) as [_ Hret]. cbn in *.
    unfold rt_before in Hrt. destruct (o_ret b) as [r|]; [|contradiction].
    specialize (Hret r eq_refl). lia.
  Qed.

  Theorem lin_points_linearizable : forall init comp pend,
    lin_points init comp pend -> linearizable init comp pend.
  Proof.
    intros init comp pend [order [Hc [Hl [Hs Hp]]]].
    exists (map fst order). repeat split; try assumption; try apply Hc.
    apply rt_ok_points; assumption.
  Qed.

  Lemma complete_linearizable : forall init h,
    NoDup (map o_id h) -> linearizable_complete init h ->
    linearizable init h [].
  Proof.
    intros init h Hnd [order [P [Hl Hr]]]. exists order. split; [|split; assumption].
    split; [|split].
    - eapply Permutation_NoDup; [|exact Hnd]. apply Permutation_map. symmetry. exact P.
    - intros o Ho. eapply Permutation_in; [symmetry; exact P|exact Ho].
    - intros o Ho. left. eapply Permutation_in; [exact P|exact Ho].
  Qed.

  Variable rep_eqb : Reply -> Reply -> bool.
  Hypothesis rep_eqb_eq : forall a b, rep_eqb a b = true <-> a = b.
  Notation lin_search := (lin_search S Op Reply step rep_eqb).
  Notation lin_check_gen := (lin_check_gen S Op Reply step rep_eqb).
  Notation lin_brute_gen := (lin_brute_gen S Op Reply step rep_eqb).
  Notation legalb := (legalb S Op Reply step rep_eqb).
  Notation rt_okb := (rt_okb Op Reply).

  Lemma minimal_spec : forall (o : orec) rest,
    minimal o rest = true <-> forall b, In b rest -> ~ rt_before b o.
  Proof.
    intros o rest. unfold minimal. rewrite forallb_forall. split; intros H b Hb.
    - specialize (H b Hb). rewrite negb_true_iff in H. intro C. apply rt_beforeb_spec in C. congruence.
    - rewrite negb_true_iff. destruct (rt_beforeb b o) eqn:E; [|reflexivity].
      apply rt_beforeb_spec in E. exfalso. exact (H b Hb E).
  Qed.

  (* the model's search is written with [if] and [existsb_lazy] so that [vm_compute] stops early;
     for the proofs, the same step with [&&] and [existsb] *)
  Lemma lin_search_unfold : forall f s a t,
    lin_search (Datatypes.S f) s (a :: t) =
    existsb (fun p => minimal (fst p) (snd p) &&
                      rep_eqb (snd (step s (o_op (fst p)))) (o_rep (fst p)) &&
                      lin_search f (fst (step s (o_op (fst p)))) (snd p)) (picks (a :: t)).
  Proof.
    intros. cbn [Actor.lin_search]. rewrite existsb_lazy_eq. apply existsb_ext.
    intros p. destruct (minimal (fst p) (snd p)); [|reflexivity].
    destruct (rep_eqb (snd (step s (o_op (fst p)))) (o_rep (fst p))); reflexivity.
  Qed.

  Lemma lin_search_sound : forall fuel s todo,
    lin_search fuel s todo = true ->
    exists order, Permutation order todo /\ legal s (map opr order) /\ rt_ok order.
  Proof.
    induction fuel as [|f IH]; intros s todo H.
    - destruct todo; cbn in H; [|discriminate]. exists []. repeat split; constructor.
    - destruct todo as [|a t].
      + exists []. repeat split; constructor.
      + rewrite lin_search_unfold in H. apply existsb_exists in H. destruct H as [[o r] [Hp H]].
        cbn [fst snd] in H. rewrite !andb_true_iff in H. destruct H as [[H1 H2] H3].
        apply IH in H3. destruct H3 as [order [P [Hl Hr]]].
        exists (o :: order). split; [|split].
        * etransitivity; [|apply picks_perm; exact Hp]. constructor. exact P.
        * cbn. split; [apply rep_eqb_eq; exact H2|exact Hl].
        * cbn. split; [|exact Hr]. intros b Hb. rewrite minimal_spec in H1. apply H1.
          eapply Permutation_in; [exact P|exact Hb].
  Qed.

  Lemma lin_search_complete : forall order s,
    legal s (map opr order) -> rt_ok order ->
    forall todo fuel, Permutation todo order -> length todo <= fuel -> lin_search fuel s todo = true.
  Proof.
    induction order as [|o order' IH]; intros s Hl Hr todo fuel P Hf.
    - symmetry in P. apply Permutation_nil in P. subst. destruct fuel; reflexivity.
    - destruct todo as [|a t]; [apply Permutation_nil in P; discriminate|].
      destruct fuel as [|f]; [cbn in Hf; lia|].
      destruct (picks_complete P) as [r [Hp Pr]].
      rewrite lin_search_unfold. apply existsb_exists. exists (o, r). split; [exact Hp|].
      cbn [fst snd]. cbn in Hl, Hr. destruct Hl as [Hl1 Hl2]. destruct Hr as [Hr1 Hr2].
      rewrite !andb_true_iff. split; [split|].
      + apply minimal_spec. intros b Hb. apply Hr1. eapply Permutation_in; [exact Pr|exact Hb].
      + apply rep_eqb_eq. exact Hl1.
      + apply IH; try assumption.
        apply picks_perm in Hp. apply Permutation_length in Hp. cbn in Hp, Hf. lia.
  Qed.

  Theorem lin_check_gen_exact : forall init h,
    lin_check_gen init h = true <-> linearizable_complete init h.
  Proof.
    intros init h. split; [apply lin_search_sound|].
    intros [order [P [Hl Hr]]]. apply (lin_search_complete Hl Hr); [symmetry; exact P|apply le_n].
  Qed.

  Lemma linearizable_complete_perm : forall init h h', Permutation h h' ->
    linearizable_complete init h -> linearizable_complete init h'.
  Proof.
    intros init h h' P [order [Po R]]. exists order. split; [exact (perm_trans Po P)|exact R].
  Qed.

  Theorem lin_check_gen_perm : forall init h h', Permutation h h' ->
    lin_check_gen init h = lin_check_gen init h'.
  Proof.
    intros init h h' P. apply eq_true_iff_eq. rewrite !lin_check_gen_exact.
    split; apply linearizable_complete_perm; [exact P|symmetry; exact P].
  Qed.

  Lemma legalb_spec : forall l s, legalb s l = true <-> legal s (map opr l).
  Proof.
    induction l as [|o t IH]; cbn; intros s; [tauto|].
    rewrite andb_true_iff, IH, rep_eqb_eq. tauto.
  Qed.
  Lemma rt_okb_spec : forall l : list orec, rt_okb l = true <-> rt_ok l.
  Proof.
    induction l as [|a t IH]; cbn; [tauto|].
    rewrite andb_true_iff, IH.
    pose proof (minimal_spec a t) as M. unfold minimal in M. rewrite M. tauto.
  Qed.

  Theorem lin_brute_gen_exact : forall init h,
    lin_brute_gen init h = true <-> linearizable_complete init h.
  Proof.
    intros init h. unfold lin_brute_gen. rewrite existsb_exists. split.
    - intros [order [Hin H]]. apply andb_true_iff in H. destruct H as [H1 H2].
      exists order. split; [|split].
      + eapply perms_sound; [|exact Hin]. lia.
      + apply legalb_spec. exact H2.
      + apply rt_okb_spec. exact H1.
    - intros [order [P [Hl Hr]]]. exists order. split.
      + apply perms_complete. exact P.
      + apply andb_true_iff. split; [apply rt_okb_spec|apply legalb_spec]; assumption.
  Qed.
  Theorem lin_check_brute_gen_agree : forall init h,
    lin_check_gen init h = lin_brute_gen init h.
  Proof.
    intros init h. apply eq_true_iff_eq. rewrite lin_check_gen_exact, lin_brute_gen_exact. reflexivity.
  Qed.
End HistProofs.

Lemma upd_eq : forall A (f : nat -> A) i x, upd f i x i = x.
Proof. intros. unfold upd. rewrite Nat.eqb_refl. reflexivity. Qed.
Lemma upd_neq : forall A (f : nat -> A) i x j, j <> i -> upd f i x j = f j.
Proof. intros. unfold upd. destruct (Nat.eqb_spec j i); [contradiction|reflexivity]. Qed.

Lemma in_snoc : forall A (l : list A) x y, In y (l ++ [x]) <-> In y l \/ y = x.
Proof.
  intros. rewrite in_app_iff. cbn. split; [intros [H|[H|[]]]|intros [H|H]]; auto.
Qed.

Lemma in_snoc_neq : forall A (l : list A) x y, In y (l ++ [x]) -> y <> x -> In y l.
Proof. intros A l x y H Hne. apply in_snoc in H. destruct H as [H|H]; [exact H|contradiction]. Qed.

Lemma in_snoc_l : forall A (l : list A) x y, In y l -> In y (l ++ [x]).
Proof. intros. apply in_snoc. left. assumption. Qed.
Arguments in_snoc_l [A l x y].

Lemma in_upd_snoc : forall A (m : nat -> list A) i x j y,
  In y (upd m i (m i ++ [x]) j) <-> In y (m j) \/ (j = i /\ y = x).
Proof.
  intros. unfold upd. destruct (Nat.eqb_spec j i) as [->|E]; [rewrite in_snoc|]; tauto.
Qed.
Lemma in_upd_tail : forall A (m : nat -> list A) i x t j y,
  m i = x :: t -> In y (upd m i t j) -> In y (m j).
Proof.
  intros A m i x t j y Hm. unfold upd. destruct (Nat.eqb_spec j i) as [->|E]; [|tauto].
  rewrite Hm. apply in_cons.
Qed.
Lemma in_upd_tail_r : forall A (m : nat -> list A) i x t j y,
  m i = x :: t -> In y (m j) -> y <> x -> In y (upd m i t j).
Proof.
  intros A m i x t j y Hm H Hne. unfold upd. destruct (Nat.eqb_spec j i) as [->|E]; [|exact H].
  rewrite Hm in H. destruct H as [H|H]; [congruence|exact H].
Qed.

Lemma StronglySorted_snoc : forall (l : list nat) x,
  StronglySorted lt l -> (forall y, In y l -> y < x) -> StronglySorted lt (l ++ [x]).
Proof.
  induction l as [|a t IH]; cbn; intros x H Hx.
  - constructor; constructor.
  - inversion H; subst. constructor.
    + apply IH; [assumption|]. intros. apply Hx. right. assumption.
    + apply Forall_app. split; [assumption|]. constructor; [|constructor]. apply Hx. left. reflexivity.
Qed.

Lemma flat_map_sorted : forall A (time : A -> nat) (f : A -> list nat) l,
  (forall a, f a = [] \/ f a = [time a]) ->
  StronglySorted lt (map time l) -> StronglySorted lt (flat_map f l).
Proof.
  induction l as [|a t IH]; cbn; intros Hf H; [constructor|].
  inversion H as [|? ? Ht Ha]; subst. specialize (IH Hf Ht).
  destruct (Hf a) as [-> | ->]; cbn; [exact IH|]. constructor; [exact IH|].
  apply Forall_forall. intros x Hx. apply in_flat_map in Hx. destruct Hx as [b [Hb Hx]].
  rewrite Forall_forall in Ha. destruct (Hf b) as [E|E]; rewrite E in Hx; [destruct Hx|]. destruct Hx as [<-|[]].
  apply Ha, in_map, Hb.
Qed.

Lemma seq_sorted : forall n a, StronglySorted lt (seq a n).
Proof.
  induction n as [|n IH]; intros a; [constructor|].
  rewrite seq_S. apply StronglySorted_snoc; [apply IH|]. intros y Hy. apply in_seq in Hy. lia.
Qed.

Section ActorProofs.
  Variable S Op Reply : Type.
  Variable step : S -> Op -> S * Reply.
  Variable route : Op -> nat.
  Variable cap : nat.
  Variable g0 : nat -> S.
  Variable prewarm : nat.

  Notation request := (request Op).
  Notation sys := (sys S Op Reply).
  Notation event := (event Op Reply).
  Notation sstep := (sys_step step route cap).
  Notation gst := (gstep step route).
  Notation glegal := (legal (nat -> S) Op Reply gst).
  Notation gfinal := (final (nat -> S) Op Reply gst).
  Notation glin_points := (lin_points (nat -> S) Op Reply gst).
  Notation glinearizable := (linearizable (nat -> S) Op Reply gst).

  Inductive reach : sys -> list event -> Prop :=
  | reach_init : reach (sys_init g0 prewarm) []
  | reach_step : forall s evs l s' e,
      reach s evs -> sstep s l = Some (s', e) -> reach s' (evs ++ [e]).

  Lemma run_reach : forall ls s pre s' evs,
    reach s pre -> run step route cap s ls = Some (s', evs) -> reach s' (pre ++ evs).
  Proof.
    induction ls as [|l ls IH]; cbn; intros s pre s' evs R H.
    - inversion H; subst. rewrite app_nil_r. exact R.
    - destruct (sstep s l) as [[s1 e]|] eqn:E; [|discriminate].
      destruct (run step route cap s1 ls) as [[s2 es]|] eqn:E2; [|discriminate].
      inversion H; subst.
      replace (pre ++ e :: es) with ((pre ++ [e]) ++ es) by (rewrite <- app_assoc; reflexivity).
      eapply IH; [|exact E2]. econstructor; eassumption.
  Qed.

  Lemma in_proc_ids : forall (evs : list event) id,
    In id (proc_ids evs) <-> exists sh rq r t, In (EProc sh rq r t) evs /\ rq_id rq = id.
  Proof.
    intros evs id. unfold proc_ids. rewrite in_flat_map. split.
    - intros [e [He H]]. destruct e; cbn in H; try contradiction.
      destruct H as [H|[]]. eauto 8.
    - intros [sh [rq [r [t [H E]]]]]. eexists. split; [exact H|]. cbn. auto.
  Qed.
  Lemma in_ret_ids : forall (evs : list event) id,
    In id (ret_ids evs) <-> exists rq r t, In (ERet rq r t) evs /\ rq_id rq = id.
  Proof.
    intros evs id. unfold ret_ids. rewrite in_flat_map. split.
    - intros [e [He H]]. destruct e; cbn in H; try contradiction.
      destruct H as [H|[]]. eauto 8.
    - intros [rq [r [t [H E]]]]. eexists. split; [exact H|]. cbn. auto.
  Qed.
  Lemma proc_ids_snoc : forall (evs : list event) e,
    proc_ids (evs ++ [e]) = proc_ids evs ++ match e with EProc _ rq _ _ => [rq_id rq] | _ => [] end.
  Proof. intros. apply flat_map_snoc. Qed.
  Lemma ret_ids_snoc : forall (evs : list event) e,
    ret_ids (evs ++ [e]) = ret_ids evs ++ match e with ERet rq _ _ => [rq_id rq] | _ => [] end.
  Proof. intros. apply flat_map_snoc. Qed.
  Lemma procs_snoc : forall (evs : list event) e,
    procs (evs ++ [e]) = procs evs ++ match e with EProc _ rq r _ => [(rq_op rq, r)] | _ => [] end.
  Proof. intros. apply flat_map_snoc. Qed.

  (* The invariant of a state [s] together with the trace [evs] that led to it.  The idea is in
     [i_wait]: a request a client waits for is in exactly one of two phases - queued (in the mailbox
     of its home shard, its cell empty, no Process event yet) or processed (in no mailbox, its cell
     holding the reply of its Process event) - and in both its cell is allocated, outside the pool
     and nobody else's ([i_excl]).
     i_time: event number i carries instant i.   i_mb: a queued request is in its home mailbox and
     its client waits for it.   i_mbnd: no request twice in a mailbox.   i_free: the pool holds
     each cell once, only allocated and empty cells; unallocated cells are empty.
     i_inv, i_inv_uniq, i_ret_uniq, i_proc_nd: ids are below [next_id]; one Invoke, at most one
     Process and one Return per id.   i_proc: a Process event happens at the home shard, after its
     Invoke.   i_ret: a Return hands out the reply of an earlier Process event of the same request.
     i_legal: the Process events in trace order are a legal run of the node (the product of the
     shard machines) from [g0] that ends in the shards' present states. *)
  Record Inv (s : sys) (evs : list event) : Prop := {
    i_time : map ev_time evs = seq 0 (now s);
    i_mb : forall sh rq, In rq (mbox s sh) ->
             route (rq_op rq) = sh /\ exists k, cli s (rq_client rq) = Waiting rq k;
    i_mbnd : forall sh, NoDup (mbox s sh);
    i_wait : forall c rq k, cli s c = Waiting rq k ->
      rq_client rq = c /\ rq_slot rq < next_slot s /\ ~ In (rq_slot rq) (free s) /\
      In (EInv rq k) evs /\ ~ In (rq_id rq) (ret_ids evs) /\
      ((In rq (mbox s (route (rq_op rq))) /\ slots s (rq_slot rq) = None /\
        ~ In (rq_id rq) (proc_ids evs)) \/
       ((forall sh, ~ In rq (mbox s sh)) /\
        exists r t, slots s (rq_slot rq) = Some r /\ In (EProc (route (rq_op rq)) rq r t) evs));
    i_excl : forall c1 c2 rq1 rq2 k1 k2,
      cli s c1 = Waiting rq1 k1 -> cli s c2 = Waiting rq2 k2 -> rq_slot rq1 = rq_slot rq2 -> c1 = c2;
    i_free : NoDup (free s) /\
             (forall x, In x (free s) -> x < next_slot s /\ slots s x = None) /\
             (forall x, next_slot s <= x -> slots s x = None);
    i_inv : forall rq k, In (EInv rq k) evs -> rq_id rq < next_id s;
    i_inv_uniq : forall rq k rq' k', In (EInv rq k) evs -> In (EInv rq' k') evs ->
                   rq_id rq = rq_id rq' -> rq = rq';
    i_ret_uniq : forall rq r t rq' r' t', In (ERet rq r t) evs -> In (ERet rq' r' t') evs ->
                   rq_id rq = rq_id rq' -> rq = rq' /\ r = r' /\ t = t';
    i_proc_nd : NoDup (proc_ids evs);
    i_proc : forall sh rq r t, In (EProc sh rq r t) evs ->
               sh = route (rq_op rq) /\ rq_tinv rq < t /\ exists k, In (EInv rq k) evs;
    i_ret : forall rq r t, In (ERet rq r t) evs ->
               exists tp, In (EProc (route (rq_op rq)) rq r tp) evs /\ tp < t;
    i_legal : glegal g0 (procs evs) /\ forall sh, gfinal g0 (procs evs) sh = mach s sh
  }.

  Lemma time_snoc : forall (evs : list event) e n,
    map ev_time evs = seq 0 n -> ev_time e = n -> map ev_time (evs ++ [e]) = seq 0 (Datatypes.S n).
  Proof. intros evs e n H <-. rewrite map_app, seq_S, H. reflexivity. Qed.

  Lemma inv_time_lt : forall s evs e, Inv s evs -> In e evs -> ev_time e < now s.
  Proof.
    intros s evs e HI H. apply (in_map ev_time) in H. rewrite (i_time HI) in H.
    apply in_seq in H. lia.
  Qed.
  Lemma proc_id_lt : forall s evs id, Inv s evs -> In id (proc_ids evs) -> id < next_id s.
  Proof.
    intros s evs id HI H. apply in_proc_ids in H. destruct H as [sh [rq [r [t [H E]]]]].
    destruct (i_proc HI H) as [_ [_ [k Hk]]]. subst. eapply i_inv; eassumption.
  Qed.
  Lemma ret_id_lt : forall s evs id, Inv s evs -> In id (ret_ids evs) -> id < next_id s.
  Proof.
    intros s evs id HI H. apply in_ret_ids in H. destruct H as [rq [r [t [H E]]]].
    destruct (i_ret HI H) as [tp [Hp _]]. subst.
    eapply proc_id_lt; [exact HI|]. apply in_proc_ids. eauto 8.
  Qed.

  Lemma inv_init : Inv (sys_init g0 prewarm) [].
  Proof.
    constructor; cbn; try (intros; contradiction); try discriminate; auto.
    - intros. constructor.
    - split; [apply seq_NoDup|]. split; [|auto].
      intros x Hx. apply in_seq in Hx. split; [lia|reflexivity].
    - constructor.
  Qed.

  Lemma acquire_cases : forall k (s : sys),
    acquire k s = (next_slot s, free s, Datatypes.S (next_slot s)) \/
    exists x f', free s = x :: f' /\ acquire k s = (x, f', next_slot s).
  Proof. intros [] s; cbn; auto. destruct (free s) as [|x f']; eauto. Qed.

  Lemma acquire_ok : forall s evs k slot fr nx,
    Inv s evs -> acquire k s = (slot, fr, nx) ->
    slot < nx /\ next_slot s <= nx /\ ~ In slot fr /\ NoDup fr /\
    (forall x, In x fr -> In x (free s)) /\ slots s slot = None /\
    (forall x, nx <= x -> slots s x = None) /\ (In slot (free s) \/ slot = next_slot s).
  Proof.
    intros s evs k slot fr nx HI H. destruct (i_free HI) as [F1 [F2 F3]].
    destruct (acquire_cases k s) as [E|[x [f' [Ef E]]]]; rewrite E in H; inversion H; subst.
    - repeat split; auto; try lia.
      + intro Hin. apply F2 in Hin. lia.
      + intros. apply F3. lia.
    - rewrite Ef in *. inversion F1; subst.
      destruct (F2 slot (or_introl eq_refl)) as [L N].
      repeat split; auto.
      + intros. right. assumption.
      + left. left. reflexivity.
  Qed.

  Lemma waiting_distinct : forall s evs c rq k c' rq' k',
    Inv s evs -> cli s c = Waiting rq k -> cli s c' = Waiting rq' k' -> c' <> c ->
    rq' <> rq /\ rq_slot rq' <> rq_slot rq /\ rq_id rq' <> rq_id rq.
  Proof.
    intros s evs c rq k c' rq' k' HI Hw Hw' Hne.
    destruct (i_wait HI Hw) as (W1 & _ & _ & W4 & _).
    destruct (i_wait HI Hw') as (V1 & _ & _ & V4 & _).
    split; [congruence|]. split.
    - intro Es. exact (Hne (i_excl HI Hw' Hw Es)).
    - intro Ei. rewrite (i_inv_uniq HI V4 W4 Ei) in V1. congruence.
  Qed.

  Lemma inv_invoke : forall s evs c k op slot fr nx,
    Inv s evs -> (forall rq k', cli s c <> Waiting rq k') ->
    acquire k s = (slot, fr, nx) ->
    let rq := Rq (next_id s) c op slot (now s) in
    Inv (Sys (upd (mbox s) (route op) (mbox s (route op) ++ [rq])) (mach s)
             (upd (cli s) c (Waiting rq k)) (slots s) fr nx
             (Datatypes.S (next_id s)) (Datatypes.S (now s)))
        (evs ++ [EInv rq k]).
  Proof.
    intros s evs c k op slot fr nx HI Hc Ha rq.
    destruct (acquire_ok HI Ha) as (A1 & A2 & A3 & A4 & A5 & A6 & A7 & A8).
    assert (Hnew : forall sh, ~ In rq (mbox s sh)).
    { intros sh Hin. destruct (i_mb HI Hin) as [_ [k' Hk]]. exact (Hc _ _ Hk). }
    assert (Hold : forall c' rq' k', cli s c' = Waiting rq' k' ->
                     upd (cli s) c (Waiting rq k) c' = Waiting rq' k').
    { intros c' rq' k' Hw. rewrite upd_neq; [exact Hw|]. intros ->. exact (Hc _ _ Hw). }
    assert (Hcli : forall c' rq' k', upd (cli s) c (Waiting rq k) c' = Waiting rq' k' ->
                     (c' = c /\ rq' = rq /\ k' = k) \/ (c' <> c /\ cli s c' = Waiting rq' k')).
    { intros c' rq' k'. unfold upd. destruct (Nat.eqb_spec c' c) as [->|E]; [|auto].
      intro H. inversion H. auto. }
    assert (Hslot : forall c' rq' k', cli s c' = Waiting rq' k' -> rq_slot rq' <> slot).
    { intros c' rq' k' Hw E. destruct (i_wait HI Hw) as (_ & W2 & W3 & _).
      destruct A8 as [A8|A8]; [apply W3; rewrite E; exact A8|lia]. }
    constructor; cbn [mbox mach cli slots free next_slot next_id now].
    - (* i_time *) apply (time_snoc (i_time HI)). reflexivity.
    - (* i_mb *) intros sh rq' Hin. apply in_upd_snoc in Hin. destruct Hin as [Hin|[-> ->]].
      + destruct (i_mb HI Hin) as [R [k' Hk]]. split; [exact R|]. exists k'. exact (Hold _ _ _ Hk).
      + split; [reflexivity|]. exists k. apply upd_eq.
    - (* i_mbnd *) intros sh. unfold upd. destruct (Nat.eqb sh (route op)); [apply NoDup_snoc; [|apply Hnew]|]; apply (i_mbnd HI).
    - (* i_wait *) intros c' rq' k' Hw. rewrite ret_ids_snoc, proc_ids_snoc, !app_nil_r.
      destruct (Hcli _ _ _ Hw) as [(-> & -> & ->)|[E Hw0]].
      + split; [reflexivity|]. split; [exact A1|]. split; [exact A3|].
        split; [apply in_snoc; right; reflexivity|].
        split; [intro H; exact (Nat.lt_irrefl _ (ret_id_lt HI H))|].
        left. split; [apply in_upd_snoc; right; split; reflexivity|]. split; [exact A6|].
        intro H. exact (Nat.lt_irrefl _ (proc_id_lt HI H)).
      + destruct (i_wait HI Hw0) as (W1 & W2 & W3 & W4 & W5 & W6).
        split; [exact W1|]. split; [lia|]. split; [intro H; exact (W3 (A5 _ H))|].
        split; [exact (in_snoc_l W4)|]. split; [exact W5|].
        destruct W6 as [(M1 & M2 & M3)|(M1 & r & t & M2 & M3)].
        * left. split; [apply in_upd_snoc; left; exact M1|]. split; assumption.
        * right. split; [|eauto using in_snoc_l].
          intros sh Hin. apply in_upd_snoc in Hin. destruct Hin as [Hin|[_ ->]]; [exact (M1 _ Hin)|].
          exact (E (eq_sym W1)).
    - (* i_excl *) intros c1 c2 rq1 rq2 k1 k2 H1 H2 Hs.
      destruct (Hcli _ _ _ H1) as [(-> & -> & ->)|[_ H1']], (Hcli _ _ _ H2) as [(-> & -> & ->)|[_ H2']].
      + reflexivity.
      + destruct (Hslot _ _ _ H2' (eq_sym Hs)).
      + destruct (Hslot _ _ _ H1' Hs).
      + exact (i_excl HI H1' H2' Hs).
    - (* i_free *) destruct (i_free HI) as [F1 [F2 F3]]. split; [exact A4|]. split; [|exact A7].
      intros x Hx. apply A5 in Hx. destruct (F2 _ Hx). split; [lia|assumption].
    - (* i_inv *) intros rq' k' Hin. apply in_snoc in Hin. destruct Hin as [Hin|Hin].
      + apply (i_inv HI) in Hin. lia.
      + injection Hin as -> _. apply Nat.lt_succ_diag_r.
    - (* i_inv_uniq *) intros rq1 k1 rq2 k2 H1 H2 Hid. apply in_snoc in H1, H2.
      destruct H1 as [H1|H1], H2 as [H2|H2].
      + exact (i_inv_uniq HI H1 H2 Hid).
      + injection H2 as -> _. apply (i_inv HI) in H1. cbn in Hid. lia.
      + injection H1 as -> _. apply (i_inv HI) in H2. cbn in Hid. lia.
      + congruence.
    - (* i_ret_uniq *) intros rq1 r1 t1 rq2 r2 t2 H1 H2. apply in_snoc_neq in H1, H2; try discriminate.
      exact (i_ret_uniq HI H1 H2).
    - (* i_proc_nd *) rewrite proc_ids_snoc, app_nil_r. apply (i_proc_nd HI).
    - (* i_proc *) intros sh rq' r t Hin. apply in_snoc_neq in Hin; [|discriminate].
      destruct (i_proc HI Hin) as (P1 & P2 & k' & P3). repeat split; eauto using in_snoc_l.
    - (* i_ret *) intros rq' r t Hin. apply in_snoc_neq in Hin; [|discriminate].
      destruct (i_ret HI Hin) as (tp & P1 & P2). eauto using in_snoc_l.
    - (* i_legal *) rewrite procs_snoc, app_nil_r. apply (i_legal HI).
  Qed.

  Lemma inv_process : forall s evs sh rq0 rest,
    Inv s evs -> mbox s sh = rq0 :: rest ->
    let st := fst (step (mach s sh) (rq_op rq0)) in
    let r := snd (step (mach s sh) (rq_op rq0)) in
    Inv (Sys (upd (mbox s) sh rest) (upd (mach s) sh st) (cli s)
             (upd (slots s) (rq_slot rq0) (Some r)) (free s) (next_slot s)
             (next_id s) (Datatypes.S (now s)))
        (evs ++ [EProc sh rq0 r (now s)]).
  Proof.
    intros s evs sh rq0 rest HI Hm st r.
    assert (Hin0 : In rq0 (mbox s sh)) by (rewrite Hm; left; reflexivity).
    destruct (i_mb HI Hin0) as [R0 [k0 C0]].
    destruct (i_wait HI C0) as (W1 & W2 & W3 & W4 & W5 & [(M1 & M2 & M3)|[M1 _]]);
      [|destruct (M1 _ Hin0)].
    pose proof (i_mbnd HI sh) as ND. rewrite Hm in ND. apply NoDup_cons_iff in ND. destruct ND as [ND1 ND2].
    constructor; cbn [mbox mach cli slots free next_slot next_id now].
    - (* i_time *) apply (time_snoc (i_time HI)). reflexivity.
    - (* i_mb *) intros sh' rq' Hin. exact (i_mb HI (in_upd_tail Hm Hin)).
    - (* i_mbnd *) intros sh'. unfold upd. destruct (Nat.eqb sh' sh); [exact ND2|apply (i_mbnd HI)].
    - (* i_wait *) intros c rq k Hw. rewrite ret_ids_snoc, proc_ids_snoc, app_nil_r.
      destruct (i_wait HI Hw) as (V1 & V2 & V3 & V4 & V5 & V6).
      split; [exact V1|]. split; [exact V2|]. split; [exact V3|].
      split; [exact (in_snoc_l V4)|]. split; [exact V5|].
      destruct (Nat.eq_dec c (rq_client rq0)) as [E|E].
      + rewrite E, C0 in Hw. injection Hw as <- <-. right. split.
        * intros sh' Hin. unfold upd in Hin. destruct (Nat.eqb_spec sh' sh) as [E'|E']; [exact (ND1 Hin)|].
          destruct (i_mb HI Hin) as [R' _]. congruence.
        * exists r, (now s). split; [apply upd_eq|]. apply in_snoc. right. rewrite R0. reflexivity.
      + destruct (waiting_distinct HI C0 Hw E) as (O1 & O2 & O3).
        rewrite (upd_neq (slots s)) by exact O2.
        destruct V6 as [(N1 & N2 & N3)|(N1 & r' & t' & N2 & N3)].
        * left. split; [exact (in_upd_tail_r Hm N1 O1)|]. split; [exact N2|].
          intro H. exact (N3 (in_snoc_neq H O3)).
        * right. split; [|eauto using in_snoc_l].
          intros sh' Hin. exact (N1 _ (in_upd_tail Hm Hin)).
    - (* i_excl *) apply (i_excl HI).
    - (* i_free *) destruct (i_free HI) as [F1 [F2 F3]]. split; [exact F1|]. split.
      + intros x Hx. destruct (F2 _ Hx) as [L N]. split; [exact L|].
        rewrite upd_neq; [exact N|]. intros ->. exact (W3 Hx).
      + intros x Hx. rewrite upd_neq; [exact (F3 _ Hx)|lia].
    - (* i_inv *) intros rq' k' Hin. apply in_snoc_neq in Hin; [|discriminate].
      exact (i_inv HI Hin).
    - (* i_inv_uniq *) intros rq1 k1 rq2 k2 H1 H2. apply in_snoc_neq in H1, H2; try discriminate.
      exact (i_inv_uniq HI H1 H2).
    - (* i_ret_uniq *) intros rq1 r1 t1 rq2 r2 t2 H1 H2. apply in_snoc_neq in H1, H2; try discriminate.
      exact (i_ret_uniq HI H1 H2).
    - (* i_proc_nd *) rewrite proc_ids_snoc. apply NoDup_snoc; [apply (i_proc_nd HI)|exact M3].
    - (* i_proc *) intros sh' rq' r' t Hin. apply in_snoc in Hin. destruct Hin as [Hin|Hin].
      + destruct (i_proc HI Hin) as (P1 & P2 & k' & P3). repeat split; eauto using in_snoc_l.
      + injection Hin as -> -> -> ->.
        repeat split; [symmetry; exact R0|exact (inv_time_lt HI W4)|eauto using in_snoc_l].
    - (* i_ret *) intros rq' r' t Hin. apply in_snoc_neq in Hin; [|discriminate].
      destruct (i_ret HI Hin) as (tp & P1 & P2). eauto using in_snoc_l.
    - (* i_legal *) destruct (i_legal HI) as [L1 L2]. rewrite procs_snoc. split.
      + apply legal_app. split; [exact L1|]. cbn. split; [|trivial].
        unfold r. rewrite R0, L2. reflexivity.
      + intros sh'. rewrite final_app. cbn. unfold upd at 1. rewrite R0.
        destruct (Nat.eqb_spec sh' sh) as [E|E].
        * subst sh'. rewrite upd_eq. rewrite L2. reflexivity.
        * rewrite upd_neq by exact E. apply L2.
  Qed.

  Lemma release_in : forall k slot fr x, In x (release cap k slot fr) -> In x fr \/ x = slot.
  Proof.
    intros k slot fr x H. unfold release in H. destruct k; auto.
    destruct (length fr <? cap); auto. apply in_snoc in H. exact H.
  Qed.
  Lemma release_nodup : forall k slot fr, NoDup fr -> ~ In slot fr -> NoDup (release cap k slot fr).
  Proof.
    intros k slot fr H Hn. unfold release. destruct k; auto.
    destruct (length fr <? cap); auto. apply NoDup_snoc; assumption.
  Qed.

  Lemma inv_return : forall s evs c rq k r,
    Inv s evs -> cli s c = Waiting rq k -> slots s (rq_slot rq) = Some r ->
    Inv (Sys (mbox s) (mach s) (upd (cli s) c (Done r))
             (upd (slots s) (rq_slot rq) None)
             (release cap k (rq_slot rq) (free s)) (next_slot s)
             (next_id s) (Datatypes.S (now s)))
        (evs ++ [ERet rq r (now s)]).
  Proof.
    intros s evs c rq k r HI Hw Hs.
    destruct (i_wait HI Hw) as (W1 & W2 & W3 & W4 & W5 & [(_ & M2 & _)|(M1 & r' & t' & M2 & M3)]);
      [congruence|].
    assert (r' = r) by congruence. subst r'.
    assert (Hcli : forall c' rq' k', upd (cli s) c (Done r) c' = Waiting rq' k' ->
                     c' <> c /\ cli s c' = Waiting rq' k').
    { intros c' rq' k'. unfold upd. destruct (Nat.eqb_spec c' c); [discriminate|auto]. }
    constructor; cbn [mbox mach cli slots free next_slot next_id now].
    - (* i_time *) apply (time_snoc (i_time HI)). reflexivity.
    - (* i_mb *) intros sh rq' Hin. destruct (i_mb HI Hin) as [R [k' Hk]]. split; [exact R|].
      exists k'. rewrite upd_neq; [exact Hk|]. intro E. rewrite E, Hw in Hk. inversion Hk; subst.
      exact (M1 _ Hin).
    - (* i_mbnd *) apply (i_mbnd HI).
    - (* i_wait *) intros c' rq' k' Hw'. apply Hcli in Hw'. destruct Hw' as [E Hw'].
      rewrite ret_ids_snoc, proc_ids_snoc, app_nil_r.
      destruct (waiting_distinct HI Hw Hw' E) as (_ & O1 & O2).
      destruct (i_wait HI Hw') as (V1 & V2 & V3 & V4 & V5 & V6).
      rewrite (upd_neq (slots s)) by exact O1.
      split; [exact V1|]. split; [exact V2|]. split.
      { intro H. apply release_in in H. destruct H as [H|H]; [exact (V3 H)|exact (O1 H)]. }
      split; [exact (in_snoc_l V4)|]. split.
      { intro H. exact (V5 (in_snoc_neq H O2)). }
      destruct V6 as [N|(N1 & r'' & t'' & N2 & N3)]; [left; exact N|].
      right. split; [exact N1|eauto using in_snoc_l].
    - (* i_excl *) intros c1 c2 rq1 rq2 k1 k2 H1 H2. apply Hcli in H1, H2.
      exact (i_excl HI (proj2 H1) (proj2 H2)).
    - (* i_free *) destruct (i_free HI) as [F1 [F2 F3]]. split; [apply release_nodup; assumption|]. split.
      + intros x Hx. apply release_in in Hx. destruct Hx as [Hx|Hx].
        * destruct (F2 _ Hx) as [L N]. split; [exact L|].
          rewrite upd_neq; [exact N|]. intros ->. exact (W3 Hx).
        * subst x. split; [exact W2|apply upd_eq].
      + intros x Hx. rewrite upd_neq; [exact (F3 _ Hx)|lia].
    - (* i_inv *) intros rq' k' Hin. apply in_snoc_neq in Hin; [|discriminate].
      exact (i_inv HI Hin).
    - (* i_inv_uniq *) intros rq1 k1 rq2 k2 H1 H2. apply in_snoc_neq in H1, H2; try discriminate.
      exact (i_inv_uniq HI H1 H2).
    - (* i_ret_uniq *) intros rq1 r1 t1 rq2 r2 t2 H1 H2 Hid. apply in_snoc in H1, H2.
      destruct H1 as [H1|H1], H2 as [H2|H2].
      + exact (i_ret_uniq HI H1 H2 Hid).
      + injection H2 as -> -> ->. destruct W5. apply in_ret_ids. eauto.
      + injection H1 as -> -> ->. destruct W5. apply in_ret_ids. eauto.
      + injection H1 as -> -> ->. injection H2 as -> -> ->. auto.
    - (* i_proc_nd *) rewrite proc_ids_snoc, app_nil_r. apply (i_proc_nd HI).
    - (* i_proc *) intros sh rq' r0 t Hin. apply in_snoc_neq in Hin; [|discriminate].
      destruct (i_proc HI Hin) as (P1 & P2 & k' & P3). repeat split; eauto using in_snoc_l.
    - (* i_ret *) intros rq' r0 t Hin. apply in_snoc in Hin. destruct Hin as [Hin|Hin].
      + destruct (i_ret HI Hin) as (tp & P1 & P2). eauto using in_snoc_l.
      + injection Hin as -> -> ->. exists t'. split; [exact (in_snoc_l M3)|exact (inv_time_lt HI M3)].
    - (* i_legal *) rewrite procs_snoc, app_nil_r. apply (i_legal HI).
  Qed.

  Lemma inv_step : forall s evs l s' e, Inv s evs -> sstep s l = Some (s', e) -> Inv s' (evs ++ [e]).
  Proof.
    intros s evs l s' e HI H. destruct l as [c k op|sh|c]; cbn in H.
    - destruct (acquire k s) as [[slot fr] nx] eqn:Ea.
      (* Idle and Done alike *)
      destruct (cli s c) eqn:Ec; try discriminate; inversion H; subst;
        (eapply inv_invoke; [exact HI|intros ? ?; rewrite Ec; discriminate|exact Ea]).
    - destruct (mbox s sh) as [|rq0 rest] eqn:Em; [discriminate|]. inversion H; subst.
      apply inv_process; assumption.
    - destruct (cli s c) as [|rq k|] eqn:Ec; try discriminate.
      destruct (slots s (rq_slot rq)) as [r|] eqn:Es; [|discriminate]. inversion H; subst.
      apply inv_return; assumption.
  Qed.

  Lemma reach_inv : forall s evs, reach s evs -> Inv s evs.
  Proof. induction 1; [apply inv_init|eapply inv_step; eassumption]. Qed.

  Lemma run_inv : forall ls s evs, run step route cap (sys_init g0 prewarm) ls = Some (s, evs) -> Inv s evs.
  Proof.
    intros ls s evs H. apply reach_inv. exact (run_reach reach_init H).
  Qed.

  Lemma proc_order_ids : forall evs : list event, map o_id (map fst (proc_order evs)) = proc_ids evs.
  Proof.
    intros evs. unfold proc_order, proc_ids. rewrite !map_flat_map.
    apply flat_map_ext. intros [| |]; reflexivity.
  Qed.
  Lemma proc_order_procs : forall evs : list event, map opr (map fst (proc_order evs)) = procs evs.
  Proof.
    intros evs. unfold proc_order, procs. rewrite !map_flat_map.
    apply flat_map_ext. intros [| |]; reflexivity.
  Qed.
  Lemma in_proc_order : forall (evs : list event) x,
    In x (proc_order evs) <->
    exists sh rq r t, In (EProc sh rq r t) evs /\
      x = (OpRec (rq_id rq) (rq_tinv rq) (find_ret (rq_id rq) evs) (rq_op rq) r, t).
  Proof.
    intros evs x. unfold proc_order. rewrite in_flat_map. split.
    - intros [e [He H]]. destruct e; cbn in H; try contradiction. destruct H as [H|[]]. eauto 8.
    - intros [sh [rq [r [t [H E]]]]]. eexists. split; [exact H|]. cbn. auto.
  Qed.
  Lemma in_completed : forall (l : list event) o,
    In o (completed l) <->
    exists rq r t, In (ERet rq r t) l /\ o = OpRec (rq_id rq) (rq_tinv rq) (Some t) (rq_op rq) r.
  Proof.
    intros l o. unfold completed. rewrite in_flat_map. split.
    - intros [e [He H]]. destruct e; cbn in H; try contradiction. destruct H as [H|[]]. eauto 8.
    - intros [rq [r [t [H E]]]]. eexists. split; [exact H|]. cbn. auto.
  Qed.
  Lemma find_ret_some : forall (l : list event) id t,
    find_ret id l = Some t -> exists rq r, In (ERet rq r t) l /\ rq_id rq = id.
  Proof.
    induction l as [|e l IH]; cbn; intros id t H; [discriminate|].
    destruct e as [rq k|sh rq r t0|rq r t0].
    - destruct (IH _ _ H) as [rq' [r' [H1 H2]]]. eauto.
    - destruct (IH _ _ H) as [rq' [r' [H1 H2]]]. eauto.
    - destruct (Nat.eqb_spec (rq_id rq) id) as [E|E].
      + inversion H; subst. eauto.
      + destruct (IH _ _ H) as [rq' [r' [H1 H2]]]. eauto.
  Qed.
  Lemma find_ret_in : forall (l : list event) rq r t,
    In (ERet rq r t) l -> exists t', find_ret (rq_id rq) l = Some t'.
  Proof.
    induction l as [|e l IH]; cbn; intros rq r t H; [contradiction|].
    destruct H as [H|H].
    - subst e. rewrite Nat.eqb_refl. eauto.
    - destruct e as [rq' k|sh rq' r' t0|rq' r' t0]; try (eapply IH; eassumption).
      destruct (Nat.eqb (rq_id rq') (rq_id rq)); [eauto|eapply IH; eassumption].
  Qed.

  Lemma inv_now : forall s evs, Inv s evs -> now s = length evs.
  Proof.
    intros s evs HI. rewrite <- (seq_length (now s) 0), <- (i_time HI). apply map_length.
  Qed.

  Lemma inv_reply_own : forall s evs rq r t, Inv s evs -> In (ERet rq r t) evs ->
    exists k tp, In (EInv rq k) evs /\ In (EProc (route (rq_op rq)) rq r tp) evs /\
                 rq_tinv rq < tp /\ tp < t.
  Proof.
    intros s evs rq r t HI Hr. destruct (i_ret HI Hr) as (tp & Hp & Hlt).
    destruct (i_proc HI Hp) as (_ & Hlt2 & k & Hk). exists k, tp. auto.
  Qed.

  Lemma inv_real_time : forall s evs a ra ta b shb rb tb, Inv s evs ->
    In (ERet a ra ta) evs -> ta < rq_tinv b -> In (EProc shb b rb tb) evs ->
    exists tpa, In (EProc (route (rq_op a)) a ra tpa) evs /\ tpa < tb.
  Proof.
    intros s evs a ra ta b shb rb tb HI Ha Hlt Hb.
    destruct (inv_reply_own HI Ha) as (k & tp & _ & Hp & _ & Hlt2).
    destruct (i_proc HI Hb) as (_ & Hlt3 & _).
    exists tp. split; [exact Hp|lia].
  Qed.

  Lemma inv_return_own : forall s evs c s' rq r t,
    Inv s evs -> sstep s (LReturn c) = Some (s', ERet rq r t) ->
    rq_client rq = c /\ exists k tp, In (EInv rq k) evs /\ In (EProc (route (rq_op rq)) rq r tp) evs.
  Proof.
    intros s evs c s' rq r t HI Hs. cbn in Hs.
    destruct (cli s c) as [|rq' k|] eqn:Ec; try discriminate.
    destruct (slots s (rq_slot rq')) as [r'|] eqn:Es; [|discriminate]. inversion Hs; subst.
    destruct (i_wait HI Ec) as (W1 & _ & _ & W4 & _ & [(_ & M2 & _)|(_ & r' & t' & M2 & M3)]);
      [congruence|].
    split; [exact W1|]. exists k, t'. split; [exact W4|]. congruence.
  Qed.

  Lemma inv_find_ret : forall s evs rq r t,
    Inv s evs -> In (ERet rq r t) evs -> find_ret (rq_id rq) evs = Some t.
  Proof.
    intros s evs rq r t HI Hr. destruct (find_ret_in Hr) as [t' Ht]. rewrite Ht.
    destruct (find_ret_some Ht) as (rq' & r' & Hr' & Hid).
    destruct (i_ret_uniq HI Hr' Hr Hid) as (_ & _ & E). congruence.
  Qed.

  Lemma inv_proc_uniq : forall s evs sh rq r t sh' rq' r' t', Inv s evs ->
    In (EProc sh rq r t) evs -> In (EProc sh' rq' r' t') evs -> rq_id rq = rq_id rq' ->
    EProc sh rq r t = EProc sh' rq' r' t'.
  Proof.
    intros s evs sh rq r t sh' rq' r' t' HI H1 H2 Hid.
    eapply (NoDup_flat_map_inj _ _ _ _ _ _ (rq_id rq) (i_proc_nd HI) H1 H2); cbn; auto.
  Qed.

  Lemma inv_find_ret_proc : forall s evs sh rq r t tr, Inv s evs ->
    In (EProc sh rq r t) evs -> find_ret (rq_id rq) evs = Some tr -> In (ERet rq r tr) evs /\ t < tr.
  Proof.
    intros s evs sh rq r t tr HI Hp Ef. destruct (find_ret_some Ef) as (rq' & r' & Hr & Hid).
    destruct (i_ret HI Hr) as (tp & Hp' & Hlt).
    pose proof (inv_proc_uniq HI Hp' Hp Hid) as E. inversion E; subst. auto.
  Qed.

  (* the witness is [proc_order]: each operation takes effect at its Process event *)
  Theorem inv_lin_points : forall s evs, Inv s evs ->
    glin_points g0 (completed evs) (pending evs).
  Proof.
    intros s evs HI. exists (proc_order evs).
    split; [|split; [|split]].
    - split; [|split].
      + rewrite proc_order_ids. apply (i_proc_nd HI).
      + intros o Ho. apply in_completed in Ho. destruct Ho as (rq & r & t & Hr & ->).
        destruct (i_ret HI Hr) as (tp & Hp & _).
        apply in_map_iff. eexists (_, tp). split; [|apply in_proc_order; eauto 8].
        cbn. rewrite (inv_find_ret HI Hr). reflexivity.
      + intros o Ho. apply in_map_iff in Ho. destruct Ho as ([o' p] & <- & Ho).
        apply in_proc_order in Ho. destruct Ho as (sh & rq & r & t & Hp & E). inversion E; subst o' p. clear E.
        cbn [fst]. destruct (find_ret (rq_id rq) evs) as [tr|] eqn:Ef.
        * left. apply in_completed. exists rq, r, tr. split; [|reflexivity].
          exact (proj1 (inv_find_ret_proc HI Hp Ef)).
        * right. destruct (i_proc HI Hp) as (_ & _ & k & Hk).
          exists (PendRec (rq_id rq) (rq_tinv rq) (rq_op rq)), r. split; [|reflexivity].
          apply in_flat_map. exists (EInv rq k). split; [exact Hk|]. rewrite Ef. left. reflexivity.
    - rewrite proc_order_procs. apply (i_legal HI).
    - unfold proc_order. rewrite map_flat_map. apply flat_map_sorted with (time := ev_time).
      + intros [| |]; cbn; auto.
      + rewrite (i_time HI). apply seq_sorted.
    - apply Forall_forall. intros [o p] Ho. apply in_proc_order in Ho.
      destruct Ho as (sh & rq & r & t & Hp & E). inversion E; subst o p. clear E.
      destruct (i_proc HI Hp) as (_ & Hlt & _).
      split; cbn; [exact Hlt|]. intros tr Ef. exact (proj2 (inv_find_ret_proc HI Hp Ef)).
  Qed.

  Theorem inv_linearizable : forall s evs, Inv s evs ->
    glinearizable g0 (completed evs) (pending evs).
  Proof. intros s evs HI. exact (lin_points_linearizable (inv_lin_points HI)). Qed.
End ActorProofs.

Section KeyProofs.
  Variable S Op Reply : Type.
  Variable step : S -> Op -> S * Reply.
  Variable route : Op -> nat.
  Variable K V KReply : Type.
  Variable touches : Op -> K -> bool.
  Variable view : S -> K -> V.
  Variable kstep : K -> V -> Op -> V * KReply.
  Variable rproj : K -> Reply -> KReply.
  Variable home : K -> nat.

  Hypothesis key_local : forall s op k, touches op k = true ->
    kstep k (view s k) op = (view (fst (step s op)) k, rproj k (snd (step s op))).
  Hypothesis key_frame : forall s op k, touches op k = false -> view (fst (step s op)) k = view s k.
  Hypothesis single_homed : forall op k, touches op k = true -> route op = home k.

  Notation gst := (gstep step route).
  Notation glegal := (legal (nat -> S) Op Reply gst).
  Notation glinearizable := (linearizable (nat -> S) Op Reply gst).
  Notation proj_ops := (proj_ops Op Reply KReply K touches rproj).
  Notation proj_rec := (proj_rec Op Reply KReply K rproj).
  Notation proj_hist := (proj_hist Op Reply KReply K touches rproj).
  Notation proj_pend := (proj_pend Op K touches).

  Lemma legal_project : forall l g k,
    glegal g l ->
    legal V Op KReply (kstep k) (view (g (home k)) k) (proj_ops k l).
  Proof.
    induction l as [|[op r] t IH]; intros g k H; [exact I|].
    cbn in H. destruct H as [H1 H2]. unfold Actor.proj_ops. cbn [filter fst].
    destruct (touches op k) eqn:Et.
    - cbn [map fst snd]. pose proof (single_homed Et) as Rh.
      pose proof (key_local (g (home k)) Et) as KL.
      cbn. rewrite KL. cbn [fst snd]. split.
      + rewrite <- Rh. rewrite H1. reflexivity.
      + specialize (IH _ k H2). unfold Actor.proj_ops in IH.
        rewrite Rh in IH. rewrite upd_eq in IH. exact IH.
    - specialize (IH _ k H2). unfold Actor.proj_ops in IH.
      assert (E : view (upd g (route op) (fst (step (g (route op)) op)) (home k)) k = view (g (home k)) k).
      { destruct (Nat.eqb_spec (home k) (route op)) as [E|E].
        - rewrite E, upd_eq. rewrite <- E. apply key_frame. exact Et.
        - rewrite upd_neq by exact E. reflexivity. }
      rewrite E in IH. exact IH.
  Qed.

  Lemma proj_hist_opr : forall k l,
    map opr (proj_hist k l) = proj_ops k (map opr l).
  Proof.
    induction l as [|o t IH]; [reflexivity|].
    unfold Actor.proj_hist, Actor.proj_ops in *. cbn [filter map opr fst]. destruct (touches (o_op o) k); cbn; rewrite IH; reflexivity.
  Qed.

  Lemma in_proj_hist : forall k l o,
    In o (proj_hist k l) <->
    exists o0, proj_rec k o0 = o /\ In o0 l /\ touches (o_op o0) k = true.
  Proof. intros k l o. unfold Actor.proj_hist. rewrite in_map_iff. setoid_rewrite filter_In. reflexivity. Qed.

  Lemma rt_ok_proj : forall k l, rt_ok l -> rt_ok (proj_hist k l).
  Proof.
    induction l as [|a t IH]; intros H; [exact I|].
    cbn in H. destruct H as [H1 H2]. specialize (IH H2). fold (proj_hist k t) in IH.
    unfold Actor.proj_hist. cbn [filter]. destruct (touches (o_op a) k); [|exact IH].
    cbn [map]. split; [|exact IH].
    intros b Hb. apply in_proj_hist in Hb. destruct Hb as (b0 & <- & Hb & _). exact (H1 _ Hb).
  Qed.

  Lemma linearizable_project : forall g comp pend k,
    glinearizable g comp pend ->
    linearizable V Op KReply (kstep k) (view (g (home k)) k) (proj_hist k comp) (proj_pend k pend).
  Proof.
    intros g comp pend k [order [[C1 [C2 C3]] [Hl Hr]]].
    exists (proj_hist k order). split; [|split].
    - split; [|split].
      + unfold Actor.proj_hist. rewrite map_map. cbn. apply NoDup_map_filter. exact C1.
      + intros o Ho. apply in_proj_hist in Ho. destruct Ho as (o0 & E & Ho & Ht).
        apply in_proj_hist. exists o0. auto.
      + intros o Ho. apply in_proj_hist in Ho. destruct Ho as (o0 & <- & Ho & Ht).
        destruct (C3 _ Ho) as [Hc|(p & r & Hp & ->)].
        * left. apply in_proj_hist. exists o0. auto.
        * right. exists p, (rproj k r). split; [|reflexivity]. apply filter_In. auto.
    - rewrite proj_hist_opr. apply legal_project. exact Hl.
    - apply rt_ok_proj. exact Hr.
  Qed.
End KeyProofs.

Section BatchLocal.
  Variable S POp PReply K V : Type.
  Variable pstep : S -> POp -> S * PReply.
  Variable pkey : POp -> K.
  Variable keqb : K -> K -> bool.
  Hypothesis keqb_eq : forall a b, keqb a b = true <-> a = b.
  Variable view : S -> K -> V.
  Variable pkstep : V -> POp -> V * PReply.
  Hypothesis prim_local : forall s p,
    pkstep (view s (pkey p)) p = (view (fst (pstep s p)) (pkey p), snd (pstep s p)).
  Hypothesis prim_frame : forall s p k, k <> pkey p -> view (fst (pstep s p)) k = view s k.

  (* the batch machine; its reply lists (key, reply) pairs.  These four definitions are the
     vocabulary of [batch_key_local] (Props/C02.v), which applies them to all their arguments *)
  Local Unset Implicit Arguments.
  Definition kbatch_step (s : S) (b : list POp) : S * list (K * PReply) :=
    (fst (batch_step S POp PReply pstep s b), combine (map pkey b) (snd (batch_step S POp PReply pstep s b))).
  Definition kbatch_touches (b : list POp) (k : K) : bool := existsb (fun p => keqb (pkey p) k) b.
  Definition kbatch_kstep (k : K) (v : V) (b : list POp) : V * list PReply :=
    batch_step V POp PReply pkstep v (filter (fun p => keqb (pkey p) k) b).
  Definition kbatch_rproj (k : K) (r : list (K * PReply)) : list PReply :=
    map snd (filter (fun x => keqb (fst x) k) r).

  Local Set Implicit Arguments.

  Lemma keqb_false : forall a b, keqb a b = false -> b <> a.
  Proof. intros a b E ->. rewrite (proj2 (keqb_eq a a) eq_refl) in E. discriminate. Qed.

  (* the first hypothesis of [per_key]; it holds whether or not the batch touches k *)
  Lemma kbatch_local : forall b s k,
    kbatch_kstep k (view s k) b =
    (view (fst (kbatch_step s b)) k, kbatch_rproj k (snd (kbatch_step s b))).
  Proof.
    induction b as [|p t IH]; intros s k; [reflexivity|].
    unfold kbatch_kstep, kbatch_step, kbatch_rproj in *. cbn [filter batch_step map combine fst snd].
    specialize (IH (fst (pstep s p)) k). cbn [fst snd] in IH.
    destruct (keqb (pkey p) k) eqn:E.
    - apply keqb_eq in E. subst k. cbn [batch_step filter fst snd map].
      rewrite (prim_local s p). cbn [fst snd]. rewrite IH. reflexivity.
    - rewrite (prim_frame s (keqb_false E)) in IH. rewrite IH. reflexivity.
  Qed.

  Lemma kbatch_frame : forall b s k, kbatch_touches b k = false ->
    view (fst (kbatch_step s b)) k = view s k.
  Proof.
    induction b as [|p t IH]; intros s k H; [reflexivity|].
    unfold kbatch_touches in H. cbn in H. apply orb_false_iff in H. destruct H as [H1 H2].
    unfold kbatch_step in *. cbn [batch_step fst snd].
    specialize (IH (fst (pstep s p)) k H2). cbn [fst] in IH. rewrite IH.
    apply prim_frame, keqb_false, H1.
  Qed.
End BatchLocal.

Lemma bytes_list_eqb_eq : forall a b, bytes_list_eqb a b = true <-> a = b.
Proof.
  induction a as [|x a IH]; destruct b as [|y b]; cbn.
  all: try (split; [discriminate|intros [=]]).
  { tauto. }
  rewrite andb_true_iff, Bytes.bytes_eqb_eq, IH. split; [intros [? ?]; congruence|intro H; inversion H; auto].
Qed.

Lemma prep_eqb_eq : forall a b, prep_eqb a b = true <-> a = b.
Proof.
  intros a b.
  destruct a as [[x|]| |x| | | |x|x], b as [[y|]| |y| | | |y|y]; cbn.
  all: try (split; [discriminate|intros [=]]).
  all: try tauto.
  - rewrite Bytes.bytes_eqb_eq. split; [congruence|intro H; inversion H; reflexivity].
  - rewrite Z.eqb_eq. split; [congruence|intro H; inversion H; reflexivity].
  - rewrite bytes_list_eqb_eq. split; [congruence|intro H; inversion H; reflexivity].
  - rewrite Bytes.bytes_eqb_eq. split; [congruence|intro H; inversion H; reflexivity].
Qed.
Lemma preps_eqb_eq : forall a b, preps_eqb a b = true <-> a = b.
Proof.
  induction a as [|x a IH]; destruct b as [|y b]; cbn.
  all: try (split; [discriminate|intros [=]]).
  { tauto. }
  rewrite andb_true_iff, prep_eqb_eq, IH. split; [intros [? ?]; congruence|intro H; inversion H; auto].
Qed.

Lemma store_key_local : forall (s : nat -> kst) op k, store_touches op k = true ->
  store_kstep k (store_view s k) op =
  (store_view (fst (store_step s op)) k, snd (store_step s op)).
Proof.
  intros s [key ops] k H. unfold store_touches in H. cbn in H. apply Nat.eqb_eq in H. subst key.
  unfold store_kstep, store_view, store_step. cbn [fst snd]. rewrite upd_eq.
  destruct (kstep (s k) ops); reflexivity.
Qed.
Lemma store_key_frame : forall (s : nat -> kst) op k, store_touches op k = false ->
  store_view (fst (store_step s op)) k = store_view s k.
Proof.
  intros s [key ops] k H. unfold store_touches in H. cbn in H. apply Nat.eqb_neq in H.
  unfold store_view, store_step. cbn [fst snd]. apply upd_neq. auto.
Qed.
Lemma store_single_homed : forall n op k, store_touches op k = true -> store_route n op = Nat.modulo k n.
Proof.
  intros n [key ops] k H. unfold store_touches in H. cbn in H. apply Nat.eqb_eq in H. subst. reflexivity.
Qed.
