(* Lemmas about Model/Wal.v.  Everything is proved for an arbitrary checksum function, except
   the witnesses at the end, which are computed with the real CRC-32.
   [decode_framed] describes decode completely on an input cut into its three header fields and
   the rest; [decode_cases] is the resulting view of decode on arbitrary bytes. *)
From Coq Require Import Arith NArith List Bool Lia Permutation Sorted.
From RV Require Import Lib.Hex Lib.ListFacts Lib.Bytes Lib.Crc32 Gen.Consts Model.Wal.
Import ListNotations.
Local Open Scope N_scope.

(* the constants the proofs rely on; if wal.rs changes them these lemmas stop compiling
   (the length of the magic is used by [wal_open_header] through [reflexivity]) *)
Lemma overhead_16 : WAL_ENTRY_OVERHEAD = 16. Proof. reflexivity. Qed.
Lemma header_16 : WAL_HEADER_SIZE = 16. Proof. reflexivity. Qed.
Lemma magic_len : lenN WAL_MAGIC = 4. Proof. reflexivity. Qed.

Definition U32 : N := 4294967296.
Definition U64 : N := 18446744073709551616.

Definition sorted_files (st : store) : list (N * (bytes * bytes)) := sort_by_seq (wal_files st).

Section Sorting.
  Context {A : Type}.
  Definition key_le (a b : N * A) : Prop := fst a <= fst b.

  Lemma sort_cons : forall (x : N * A) l, sort_by_seq (x :: l) = insert_by_seq x (sort_by_seq l).
  Proof. reflexivity. Qed.

  Lemma insert_perm : forall (x : N * A) l, Permutation (insert_by_seq x l) (x :: l).
  Proof.
    induction l as [|y r IH]; cbn [insert_by_seq]; auto.
    destruct (fst x <=? fst y); auto.
    eapply perm_trans; [apply perm_skip, IH|apply perm_swap].
  Qed.
  Lemma sort_perm : forall l : list (N * A), Permutation (sort_by_seq l) l.
  Proof.
    induction l as [|x r IH]; [apply perm_nil|]. rewrite sort_cons.
    eapply perm_trans; [apply insert_perm|]. now apply perm_skip.
  Qed.

  Lemma insert_sorted : forall (x : N * A) l,
    StronglySorted key_le l -> StronglySorted key_le (insert_by_seq x l).
  Proof.
    intros x l H. induction H as [|y r Hr IH Hy]; cbn [insert_by_seq].
    - repeat constructor.
    - destruct (N.leb_spec (fst x) (fst y)) as [E|E].
      + constructor; [constructor; assumption|]. constructor; [exact E|].
        eapply Forall_impl; [|exact Hy]. intros z Hz. exact (N.le_trans _ _ _ E Hz).
      + constructor; [exact IH|].
        apply (Permutation_Forall (Permutation_sym (insert_perm x r))).
        constructor; [exact (N.lt_le_incl _ _ E)|exact Hy].
  Qed.
  Lemma sort_sorted : forall l : list (N * A), StronglySorted key_le (sort_by_seq l).
  Proof.
    induction l as [|x r IH]; [constructor|]. rewrite sort_cons. now apply insert_sorted.
  Qed.

  (* Where an element lands in the sorted list depends on its key only, not on its payload. *)
  Lemma insert_slot : forall s (l : list (N * A)),
    exists before after, forall a, insert_by_seq (s, a) l = before ++ (s, a) :: after.
  Proof.
    induction l as [|y r (before & after & IH)]; [now exists [], []|].
    cbn [insert_by_seq fst]. destruct (s <=? fst y).
    - now exists [], (y :: r).
    - exists (y :: before), after. intros a. now rewrite IH.
  Qed.
  Lemma insert_keeps_slot : forall (y : N * A) s before after,
    exists before' after', forall a,
      insert_by_seq y (before ++ (s, a) :: after) = before' ++ (s, a) :: after'.
  Proof.
    induction before as [|z before IH]; intros after; cbn [app insert_by_seq fst].
    - destruct (fst y <=? s); [now exists [y], after|now exists [], (insert_by_seq y after)].
    - destruct (fst y <=? fst z); [now exists (y :: z :: before), after|].
      destruct (IH after) as (before' & after' & H). exists (z :: before'), after'.
      intros a. now rewrite H.
  Qed.
  Lemma sort_slot : forall (l1 l2 : list (N * A)) s,
    exists before after, forall a, sort_by_seq (l1 ++ (s, a) :: l2) = before ++ (s, a) :: after.
  Proof.
    induction l1 as [|y l1 IH]; intros l2 s; [exact (insert_slot s (sort_by_seq l2))|].
    destruct (IH l2 s) as (before & after & H).
    destruct (insert_keeps_slot y s before after) as (before' & after' & H').
    exists before', after'. intros a. cbn [app]. now rewrite sort_cons, H.
  Qed.

  Variable p : N * A -> bool.

  Lemma insert_filter_false : forall (x : N * A) l, p x = false ->
    filter p (insert_by_seq x l) = filter p l.
  Proof.
    induction l as [|y r IH]; intros Hx; cbn [insert_by_seq filter]; [now rewrite Hx|].
    destruct (fst x <=? fst y); cbn [filter]; [now rewrite Hx|]. now rewrite IH.
  Qed.

  Lemma insert_head : forall (x : N * A) l, Forall (fun y => fst x <= fst y) l ->
    insert_by_seq x l = x :: l.
  Proof.
    intros x [|y r] H; cbn [insert_by_seq]; auto.
    inversion H; subst. now rewrite leb_true.
  Qed.

  Lemma insert_filter_true : forall (x : N * A) l, p x = true -> StronglySorted key_le l ->
    filter p (insert_by_seq x l) = insert_by_seq x (filter p l).
  Proof.
    induction l as [|y r IH]; intros Hx Hs; cbn [insert_by_seq filter]; [now rewrite Hx|].
    inversion Hs as [|? ? Hr Hall]; subst.
    destruct (N.leb_spec (fst x) (fst y)) as [E|E]; cbn [filter].
    - (* x goes in front of y, hence of everything that the filter keeps of y :: r *)
      rewrite Hx. symmetry. apply insert_head.
      apply Forall_forall. intros z Hz. apply (filter_In p z (y :: r)) in Hz as [[<-|Hz] _]; [assumption|].
      apply (proj1 (Forall_forall _ _) Hall) in Hz. unfold key_le in Hz. lia.
    - rewrite IH by assumption. destruct (p y); [|reflexivity].
      cbn [insert_by_seq]. now rewrite (proj2 (N.leb_gt _ _)).
  Qed.

  Lemma sort_filter : forall l : list (N * A), sort_by_seq (filter p l) = filter p (sort_by_seq l).
  Proof.
    induction l as [|x r IH]; auto. rewrite sort_cons. cbn [filter]. destruct (p x) eqn:Hx.
    - rewrite sort_cons, IH. symmetry. apply insert_filter_true; auto.
      apply sort_sorted.
    - now rewrite insert_filter_false.
  Qed.
End Sorting.

Lemma wal_files_In : forall st s n img,
  In (s, (n, img)) (wal_files st) <-> In (n, img) st /\ parse_wal_sequence n = Some s.
Proof.
  induction st as [|[n0 img0] r IH]; intros s n img; cbn [wal_files In]; [tauto|].
  specialize (IH s n img). destruct (parse_wal_sequence n0) eqn:E; cbn [In]; intuition congruence.
Qed.
Lemma wal_files_app : forall a b, wal_files (a ++ b) = wal_files a ++ wal_files b.
Proof.
  induction a as [|[n img] r IH]; intros; cbn [wal_files app]; auto.
  destruct (parse_wal_sequence n); cbn [app]; now rewrite IH.
Qed.
Lemma wal_files_filter : forall (keep : bytes * bytes -> bool) st,
  wal_files (filter keep st) = filter (fun x => keep (snd x)) (wal_files st).
Proof.
  induction st as [|[n img] r IH]; cbn [filter wal_files]; [reflexivity|].
  destruct (keep (n, img)) eqn:E; cbn [wal_files];
    destruct (parse_wal_sequence n); cbn [filter snd]; rewrite ?E.
  - now rewrite IH.
  - exact IH.
  - exact IH.
  - exact IH.
Qed.
Lemma sorted_files_In : forall st s n img,
  In (s, (n, img)) (sorted_files st) <-> In (n, img) st /\ parse_wal_sequence n = Some s.
Proof.
  intros. rewrite <- wal_files_In.
  split; apply Permutation_in; [|symmetry]; apply sort_perm.
Qed.

Lemma filter_concat_dropped : forall A B (g : A -> list B) (p : B -> bool) (k : A -> bool) L,
  (forall x, In x L -> k x = false -> forall e, In e (g x) -> p e = false) ->
  filter p (concat (map g (filter k L))) = filter p (concat (map g L)).
Proof.
  induction L as [|x r IH]; intros H; cbn [filter map concat]; auto.
  rewrite filter_app, <- IH by (intros; eapply H; eauto; now right).
  destruct (k x) eqn:E; cbn [map concat]; [now rewrite filter_app|].
  now rewrite (filter_none _ p (g x)) by (apply H; auto; now left).
Qed.

Lemma fold_max_ge : forall l a x, x <= a \/ In x l -> x <= fold_left N.max l a.
Proof.
  induction l as [|y r IH]; intros a x H; cbn [fold_left].
  - now destruct H.
  - apply IH. destruct H as [H|[->|H]]; [left; lia|left; lia|now right].
Qed.
Lemma max_ts_ge : forall es e, In e es -> e_ts e <= max_ts es.
Proof. intros. apply fold_max_ge. right. now apply in_map. Qed.

Lemma st_delete_In : forall name st f, In f (st_delete name st) <-> In f st /\ fst f <> name.
Proof.
  intros. unfold st_delete. rewrite filter_In, negb_true_iff, bytes_eqb_neq. reflexivity.
Qed.
Lemma st_lookup_NoDup : forall st n img, NoDup (map fst st) -> In (n, img) st -> st_lookup n st = Some img.
Proof.
  induction st as [|[n0 img0] r IH]; intros n img Hnd Hin; [destruct Hin|].
  inversion Hnd; subst. cbn [st_lookup]. destruct Hin as [H|H].
  - inversion H; subst. now rewrite bytes_eqb_refl.
  - destruct (bytes_eqb n0 n) eqn:E.
    + apply bytes_eqb_eq in E. subst. exfalso. apply H1. apply in_map_iff. exists (n, img). auto.
    + now apply IH.
Qed.


Section WalProofs.
  Variable crc : bytes -> N.

  Definition wf_entry (e : entry) : Prop :=
    e_crc e = crc (e_data e) /\ e_crc e < U32 /\ e_ts e < U64 /\ lenN (e_data e) < U32.

  Notation decode_entry := (decode_entry crc).
  Notation read_loop := (read_loop crc).
  Notation wal_read := (wal_read crc).
  Notation wal_entries := (wal_entries crc).

  Lemma decode_framed : forall (flen fts fck body : bytes),
    lenN flen = 4 -> lenN fts = 8 -> lenN fck = 4 ->
    decode_entry (flen ++ fts ++ fck ++ body) =
      if lenN body <? le_dec flen then Ok None
      else if crc (takeN (le_dec flen) body) =? le_dec fck
           then Ok (Some (Entry (le_dec fts) (takeN (le_dec flen) body) (le_dec fck), 16 + le_dec flen))
           else Ok None.
  Proof.
    intros flen fts fck body Hl Ht Hc. unfold Wal.decode_entry. rewrite overhead_16.
    rewrite (sliceN_app_head _ flen), (sliceN_app_mid _ flen fts) by lia.
    rewrite (app_assoc flen fts), (sliceN_app_mid _ (flen ++ fts) fck) by (rewrite ?lenN_app; lia).
    rewrite (app_assoc _ fck). cbn [or_panic rbind].
    assert (HL : lenN ((flen ++ fts) ++ fck) = 16) by (rewrite !lenN_app; lia).
    rewrite lenN_app, HL, (ltb_false _ 16) by lia.
    destruct (N.ltb_spec (lenN body) (le_dec flen)) as [E|E].
    - now rewrite ltb_true by lia.
    - rewrite ltb_false, sliceN_app_tail by lia. reflexivity.
  Qed.

  Lemma decode_short : forall d, lenN d < 16 -> decode_entry d = Ok None.
  Proof. intros d H. unfold Wal.decode_entry. now rewrite overhead_16, ltb_true. Qed.

  Lemma frame_split : forall d : bytes, 16 <= lenN d ->
    exists flen fts fck body,
      d = flen ++ fts ++ fck ++ body /\ lenN flen = 4 /\ lenN fts = 8 /\ lenN fck = 4.
  Proof.
    intros d H.
    destruct (lenN_split _ 4 d) as (flen & d1 & -> & Hl); [lia|]. rewrite lenN_app in H.
    destruct (lenN_split _ 8 d1) as (fts & d2 & -> & Ht); [lia|]. rewrite lenN_app in H.
    destruct (lenN_split _ 4 d2) as (fck & body & -> & Hc); [lia|].
    exists flen, fts, fck, body. auto.
  Qed.

  Definition framed_as (d : bytes) (e : entry) (n : N) : Prop :=
    exists flen fts fck rest, d = flen ++ fts ++ fck ++ e_data e ++ rest /\
      lenN flen = 4 /\ lenN fts = 8 /\ lenN fck = 4 /\
      lenN (e_data e) = le_dec flen /\ e_ts e = le_dec fts /\ e_crc e = le_dec fck /\
      e_crc e = crc (e_data e) /\ n = 16 + lenN (e_data e).

  Lemma decode_cases : forall d,
    decode_entry d = Ok None \/
    exists e n, decode_entry d = Ok (Some (e, n)) /\ framed_as d e n.
  Proof.
    intros d. destruct (N.lt_ge_cases (lenN d) 16) as [H|H]; [left; now apply decode_short|].
    destruct (frame_split d H) as (flen & fts & fck & body & -> & Hl & Ht & Hc).
    rewrite decode_framed by assumption.
    destruct (N.ltb_spec (lenN body) (le_dec flen)) as [E|E]; [left; reflexivity|].
    destruct (N.eqb_spec (crc (takeN (le_dec flen) body)) (le_dec fck)) as [E2|E2];
      [right|left; reflexivity].
    assert (Ld : lenN (takeN (le_dec flen) body) = le_dec flen) by (rewrite lenN_takeN; lia).
    do 2 eexists. split; [reflexivity|]. exists flen, fts, fck, (dropN (le_dec flen) body).
    cbn [e_data e_ts e_crc]. rewrite takeN_dropN, Ld. now repeat split.
  Qed.

  Lemma decode_Some_inv : forall d e n, decode_entry d = Ok (Some (e, n)) -> framed_as d e n.
  Proof.
    intros d e n H. destruct (decode_cases d) as [E|(e' & n' & E & Hinv)]; rewrite E in H; [discriminate|].
    now injection H as <- <-.
  Qed.

  Lemma decode_consumes : forall d e n, decode_entry d = Ok (Some (e, n)) ->
    (length (dropN n d) + 16 <= length d)%nat.
  Proof.
    intros d e n H.
    apply decode_Some_inv in H as (flen & fts & fck & rest & -> & Hl & Ht & Hc & _ & _ & _ & _ & ->).
    unfold dropN. rewrite skipn_length, !app_length. unfold lenN in *. lia.
  Qed.

  Lemma decode_sound : forall d e n, Forall byte_lt d -> decode_entry d = Ok (Some (e, n)) ->
    exists rest, d = encode_entry e ++ rest /\ n = lenN (encode_entry e) /\ e_crc e = crc (e_data e).
  Proof.
    intros d e n Hwf H.
    apply decode_Some_inv in H
      as (flen & fts & fck & rest & -> & Hl & Ht & Hc & Hd & Hts & Hck & Hcrc & ->).
    apply Forall_app in Hwf as [Wl Hwf]. apply Forall_app in Hwf as [Wt Hwf].
    apply Forall_app in Hwf as [Wc _].
    assert (E : encode_entry e = flen ++ fts ++ fck ++ e_data e).
    { unfold encode_entry, entry_header. rewrite Hd, Hts, Hck, !le_enc_dec by assumption.
      now rewrite <- !app_assoc. }
    exists rest. rewrite E, !lenN_app, <- !app_assoc. repeat split; [lia|assumption].
  Qed.

  (* nat form for fuel arithmetic, N form for offsets *)
  Lemma length_encode_entry : forall e, length (encode_entry e) = (16 + length (e_data e))%nat.
  Proof. intros. unfold encode_entry, entry_header. now rewrite !app_length, !le_enc_length. Qed.
  Lemma lenN_encode_entry : forall e, lenN (encode_entry e) = 16 + lenN (e_data e).
  Proof. intros. unfold lenN. rewrite length_encode_entry. lia. Qed.

  (* Only the length field has to be in range here: it alone decides the framing.  The other
     two fields are left as decoded, so that each use asks for the bounds it needs. *)
  Lemma decode_header : forall len ts ck body, len < U32 ->
    decode_entry (entry_header len ts ck ++ body) =
      if lenN body <? len then Ok None
      else if crc (takeN len body) =? le_dec (le_enc 4 ck)
           then Ok (Some (Entry (le_dec (le_enc 8 ts)) (takeN len body) (le_dec (le_enc 4 ck)), 16 + len))
           else Ok None.
  Proof.
    intros len ts ck body Hlen. unfold entry_header. rewrite <- !app_assoc.
    rewrite decode_framed, le_dec_enc_u32 by (assumption || apply lenN_le_enc). reflexivity.
  Qed.

  Lemma decode_accepts : forall len ts ck data rest,
    len = lenN data -> len < U32 -> ts < U64 -> ck < U32 -> crc data = ck ->
    decode_entry (entry_header len ts ck ++ data ++ rest) = Ok (Some (Entry ts data ck, 16 + len)).
  Proof.
    intros len ts ck data rest -> Hlen Hts Hck <-.
    rewrite decode_header, le_dec_enc_u32, le_dec_enc_u64 by assumption.
    rewrite lenN_app, ltb_false, takeN_app_exact, N.eqb_refl by lia. reflexivity.
  Qed.

  Lemma decode_bad_len : forall len' ts ck body,
    len' < U32 -> ck < U32 ->
    (lenN body < len' \/ crc (takeN len' body) <> ck) ->
    decode_entry (entry_header len' ts ck ++ body) = Ok None.
  Proof.
    intros len' ts ck body Hlen Hck H. rewrite decode_header, le_dec_enc_u32 by assumption.
    destruct (N.ltb_spec (lenN body) len') as [E|E]; [reflexivity|].
    destruct H as [H|H]; [lia|]. now rewrite (proj2 (N.eqb_neq _ _) H).
  Qed.

  Lemma decode_encode : forall e rest, wf_entry e ->
    decode_entry (encode_entry e ++ rest) = Ok (Some (e, 16 + lenN (e_data e))).
  Proof.
    intros [ts data ck] rest (Hc & Hc32 & Hts & Hlen). unfold encode_entry. rewrite <- app_assoc.
    now apply decode_accepts.
  Qed.

  Lemma decode_stamp_replaced : forall e ts' rest, wf_entry e -> ts' < U64 ->
    decode_entry (entry_header (lenN (e_data e)) ts' (e_crc e) ++ e_data e ++ rest)
    = Ok (Some (Entry ts' (e_data e) (e_crc e), 16 + lenN (e_data e))).
  Proof. intros e ts' rest (Hc & Hc32 & Hts & Hlen) Hts'. now apply decode_accepts. Qed.

  Lemma decode_empty_header : forall ts rest, ts < U64 -> crc [] = 0 ->
    decode_entry (entry_header 0 ts 0 ++ rest) = Ok (Some (Entry ts [] 0, 16)).
  Proof. intros ts rest Hts H0. now apply (decode_accepts 0 ts 0 [] rest). Qed.
  Lemma decode_zero_header : forall rest, crc [] = 0 ->
    decode_entry (repeat 0 16 ++ rest) = Ok (Some (Entry 0 [] 0, 16)).
  Proof. intros rest H0. now apply (decode_empty_header 0 rest). Qed.

  Lemma decode_bad_crc : forall len ts ck data rest,
    len = lenN data -> len < U32 -> ck < U32 -> crc data <> ck ->
    decode_entry (entry_header len ts ck ++ data ++ rest) = Ok None.
  Proof.
    intros len ts ck data rest -> Hlen Hck Hne. apply decode_bad_len; auto.
    right. now rewrite takeN_app_exact.
  Qed.

  Lemma decode_truncated : forall e (k : nat), lenN (e_data e) < U32 ->
    (k < length (encode_entry e))%nat -> decode_entry (firstn k (encode_entry e)) = Ok None.
  Proof.
    intros e k Hlen Hk. pose proof (length_encode_entry e) as Le.
    destruct (le_lt_dec 16 k) as [H16|H16].
    - unfold encode_entry in *. rewrite app_length in Le, Hk.
      rewrite firstn_app_split, decode_header by (assumption || lia).
      rewrite ltb_true; [reflexivity|]. unfold lenN in *. rewrite firstn_length. lia.
    - apply decode_short. unfold lenN. rewrite firstn_length. lia.
  Qed.

  Lemma read_loop_nil : forall f, read_loop f [] = Ok [].
  Proof. destruct f; reflexivity. Qed.

  Lemma read_loop_defined : forall f d, (length d <= f)%nat ->
    exists es, forall f', (length d <= f')%nat -> read_loop f' d = Ok es.
  Proof.
    induction f as [|f IH]; intros d H.
    - destruct d; [|cbn in H; lia]. exists []. intros. apply read_loop_nil.
    - destruct d as [|x d']; [exists []; intros; apply read_loop_nil|].
      destruct (decode_cases (x :: d')) as [E|(e & n & E & _)].
      + exists []. intros [|f'] H'; [cbn in H'; lia|]. cbn [Wal.read_loop]. now rewrite E.
      + pose proof (decode_consumes _ _ _ E) as Hn.
        destruct (IH (dropN n (x :: d'))) as [es Hes]; [lia|].
        exists (e :: es). intros [|f'] H'; [cbn in H'; lia|].
        cbn [Wal.read_loop]. rewrite E, Hes by lia. reflexivity.
  Qed.

  Lemma read_loop_fuel : forall f1 f2 d,
    (length d <= f1)%nat -> (length d <= f2)%nat -> read_loop f1 d = read_loop f2 d.
  Proof. intros f1 f2 d H1 H2. destruct (read_loop_defined f1 d H1) as [es H]. now rewrite !H. Qed.

  Lemma read_loop_total : forall f d, (length d <= f)%nat -> exists es, read_loop f d = Ok es.
  Proof. intros f d H. destruct (read_loop_defined f d H) as [es H']. exists es. now apply H'. Qed.

  (* one decodable entry in front: the loop equation at unchanged fuel *)
  Lemma read_loop_step : forall d e n f, decode_entry d = Ok (Some (e, n)) ->
    (length d <= f)%nat ->
    read_loop f d = rbind (read_loop f (dropN n d)) (fun r => Ok (e :: r)).
  Proof.
    intros d e n f Hd Hf. pose proof (decode_consumes _ _ _ Hd) as Hn.
    destruct f as [|f]; [lia|]. destruct d as [|x d']; [cbn in Hn; lia|].
    cbn [Wal.read_loop]. rewrite Hd. rewrite (read_loop_fuel f (S f)); auto; lia.
  Qed.
  Lemma read_loop_cons : forall d e n f, decode_entry d = Ok (Some (e, n)) ->
    (length d <= f)%nat -> d <> [] ->
    read_loop f d = rbind (read_loop f (dropN n d)) (fun r => Ok (e :: r)).
  Proof. intros d e n f Hd Hf _. now apply read_loop_step. Qed.

  Lemma read_loop_entries : forall es tail f, Forall wf_entry es ->
    (tail = [] \/ decode_entry tail = Ok None) ->
    (length (concat (map encode_entry es) ++ tail) <= f)%nat ->
    read_loop f (concat (map encode_entry es) ++ tail) = Ok es.
  Proof.
    induction es as [|e es IH]; intros tail f Hwf Htail Hf; cbn [map concat app] in *.
    - destruct Htail as [->|Hd]; [apply read_loop_nil|].
      destruct f, tail; try reflexivity; [cbn in Hf; lia|]. cbn [Wal.read_loop]. now rewrite Hd.
    - inversion Hwf as [|? ? He Hes]; subst. rewrite <- app_assoc in *.
      rewrite (read_loop_step _ e _ f (decode_encode e _ He) Hf).
      rewrite dropN_app_exact' by (now rewrite lenN_encode_entry).
      rewrite app_length in Hf. rewrite IH; auto. lia.
  Qed.

  (* the converse of [read_loop_entries], up to the range conditions of [wf_entry] *)
  Lemma read_loop_sound : forall f d es, Forall byte_lt d -> read_loop f d = Ok es ->
    exists tail, d = concat (map encode_entry es) ++ tail /\
                 (tail = [] \/ decode_entry tail = Ok None) /\
                 Forall (fun e => e_crc e = crc (e_data e)) es.
  Proof.
    induction f as [|f IH]; intros d es Hwf H.
    - destruct d; [|discriminate]. injection H as <-. exists []. auto.
    - destruct d as [|x d']; [injection H as <-; exists []; auto|].
      cbn [Wal.read_loop] in H.
      destruct (decode_entry (x :: d')) as [[[e n]|]| |] eqn:E; try discriminate.
      + destruct (read_loop f (dropN n (x :: d'))) as [r| |] eqn:Er; try discriminate.
        injection H as <-.
        apply decode_sound in E as (rest & Ed & -> & Ec); [|assumption].
        rewrite Ed in Hwf, Er. rewrite dropN_app_exact in Er. apply Forall_app in Hwf as [_ Hwf].
        apply IH in Er as (tail & -> & Ht & Hall); [|assumption].
        exists tail. cbn [map concat]. rewrite Ed, <- app_assoc. auto.
      + injection H as <-. exists (x :: d'). auto.
  Qed.

  Lemma file_header_eq : forall seq,
    file_header seq = (WAL_MAGIC ++ [WAL_VERSION; 0; 0; 0]) ++ le_enc 8 seq.
  Proof.
    intros. unfold file_header. change (N.to_nat (WAL_HEADER_SIZE - 16)) with 0%nat.
    cbn [repeat]. now rewrite app_nil_r, <- app_assoc.
  Qed.
  Lemma lenN_file_header : forall seq, lenN (file_header seq) = 16.
  Proof. intros. rewrite file_header_eq, lenN_app, lenN_le_enc. reflexivity. Qed.
  Lemma length_file_header : forall seq, length (file_header seq) = 16%nat.
  Proof. intros. pose proof (lenN_file_header seq). unfold lenN in *. lia. Qed.

  Lemma wal_open_header : forall seq rest, seq < U64 ->
    wal_open (file_header seq ++ rest) = Ok seq.
  Proof.
    intros seq rest Hs. unfold wal_open.
    rewrite header_16, lenN_app, lenN_file_header, ltb_false by lia.
    rewrite file_header_eq, <- !app_assoc, (sliceN_app_head _ WAL_MAGIC) by reflexivity.
    cbn [or_panic rbind]. rewrite bytes_eqb_refl, app_assoc. cbn [negb].
    rewrite indexN_app_l by (cbn; lia).
    change (indexN 4 (WAL_MAGIC ++ [WAL_VERSION; 0; 0; 0])) with (Some WAL_VERSION).
    cbn [or_panic rbind]. rewrite N.eqb_refl, sliceN_app_mid by (rewrite ?lenN_le_enc; reflexivity).
    cbn [negb or_panic rbind]. now rewrite le_dec_enc_u64.
  Qed.

  Lemma wal_open_short : forall img, lenN img < 16 -> wal_open img = Err WCorrupt.
  Proof. intros img H. unfold wal_open. now rewrite header_16, ltb_true. Qed.

  Lemma wal_open_cases : forall img, wal_open img = Err WCorrupt \/ exists s, wal_open img = Ok s.
  Proof.
    intros img. destruct (N.lt_ge_cases (lenN img) 16) as [H|H].
    - left. now apply wal_open_short.
    - unfold wal_open, indexN.
      rewrite header_16, ltb_false, (ltb_true 4), !sliceN_ok by lia.
      cbn [or_panic rbind]. destruct (negb _); [left; reflexivity|]. destruct (negb _); [left; reflexivity|].
      right. eexists; reflexivity.
  Qed.

  Lemma wal_entries_total : forall img, exists es, wal_entries img = Ok es.
  Proof.
    intros. unfold Wal.wal_entries. apply read_loop_total.
    unfold dropN. rewrite skipn_length. lia.
  Qed.

  Lemma wal_read_cases : forall img,
    wal_read img = Err WCorrupt \/ exists s es, wal_read img = Ok (s, es).
  Proof.
    intros img. unfold Wal.wal_read.
    destruct (wal_open_cases img) as [->|[s ->]]; [left; reflexivity|].
    destruct (wal_entries_total img) as [es ->]. right. now exists s, es.
  Qed.
  Lemma wal_read_no_panic : forall img, wal_read img <> Panic.
  Proof. intros img. destruct (wal_read_cases img) as [->|(s & es & ->)]; discriminate. Qed.
  Lemma wal_read_fuel_ok : forall img, wal_read img <> Err WOutOfFuel.
  Proof. intros img. destruct (wal_read_cases img) as [->|(s & es & ->)]; discriminate. Qed.

  Lemma wal_entries_any_header : forall h body, lenN h = 16 ->
    wal_entries (h ++ body) = read_loop (length body) body.
  Proof.
    intros h body Hh. unfold Wal.wal_entries. rewrite header_16, dropN_app_exact' by auto.
    apply read_loop_fuel; rewrite ?app_length; lia.
  Qed.

  Lemma wal_read_stops : forall seq es tail, seq < U64 -> Forall wf_entry es ->
    (tail = [] \/ decode_entry tail = Ok None) ->
    wal_read (file_header seq ++ concat (map encode_entry es) ++ tail) = Ok (seq, es).
  Proof.
    intros seq es tail Hs Hwf Ht. unfold Wal.wal_read.
    rewrite wal_open_header by auto. cbn [rbind].
    rewrite wal_entries_any_header, read_loop_entries; auto using lenN_file_header.
  Qed.

  Lemma read_roundtrip : forall seq es, seq < U64 -> Forall wf_entry es ->
    wal_read (file_image seq es) = Ok (seq, es).
  Proof.
    intros. unfold file_image.
    rewrite <- (app_nil_r (concat (map encode_entry es))). apply wal_read_stops; auto.
  Qed.

  Fixpoint count_whole (es : list entry) (m : nat) : nat :=
    match es with
    | [] => O
    | e :: r => let s := (16 + length (e_data e))%nat in
                if (s <=? m)%nat then S (count_whole r (m - s)) else O
    end.

  Lemma firstn_concat_entries : forall es m, Forall wf_entry es -> exists tail,
    firstn m (concat (map encode_entry es)) =
      concat (map encode_entry (firstn (count_whole es m) es)) ++ tail /\
    (tail = [] \/ decode_entry tail = Ok None).
  Proof.
    induction es as [|e r IH]; intros m Hwf; cbn [map concat count_whole].
    - exists []. rewrite firstn_nil. auto.
    - inversion Hwf as [|? ? He Hr]; subst. pose proof (length_encode_entry e) as Le.
      destruct (Nat.leb_spec (16 + length (e_data e)) m) as [E|E].
      + destruct (IH (m - (16 + length (e_data e)))%nat Hr) as (tail & H1 & H2).
        exists tail. split; [|assumption].
        rewrite firstn_app_split, Le, H1 by lia. cbn [firstn map concat]. apply app_assoc.
      + exists (firstn m (encode_entry e)). split.
        * apply firstn_app_le. lia.
        * right. apply decode_truncated; [apply He|lia].
  Qed.

  Lemma torn_tail : forall seq es (k : nat), seq < U64 -> Forall wf_entry es ->
    let img := file_image seq es in
    ((k < 16)%nat -> wal_read (firstn k img) = Err WCorrupt) /\
    ((16 <= k)%nat -> wal_read (firstn k img) = Ok (seq, firstn (count_whole es (k - 16)) es)).
  Proof.
    intros seq es k Hs Hwf img. split; intros Hk.
    - unfold Wal.wal_read. rewrite wal_open_short; auto.
      unfold lenN. rewrite firstn_length. lia.
    - unfold img, file_image. rewrite firstn_app_split, length_file_header
        by (rewrite length_file_header; lia).
      destruct (firstn_concat_entries es (k - 16) Hwf) as (tail & -> & Ht).
      apply wal_read_stops; auto.
      rewrite <- (firstn_skipn (count_whole es (k - 16)) es) in Hwf. apply Forall_app in Hwf. apply Hwf.
  Qed.

  Lemma bad_crc_stops : forall seq es1 ts ck data rest,
    seq < U64 -> Forall wf_entry es1 -> lenN data < U32 -> ck < U32 -> crc data <> ck ->
    wal_read (file_header seq ++ concat (map encode_entry es1) ++
              (entry_header (lenN data) ts ck ++ data ++ rest))
    = Ok (seq, es1).
  Proof.
    intros. apply wal_read_stops; auto. right. now apply decode_bad_crc.
  Qed.

  Lemma payload_corruption_stops : forall seq es1 e data' rest,
    seq < U64 -> Forall wf_entry es1 -> wf_entry e ->
    lenN data' = lenN (e_data e) -> crc data' <> e_crc e ->
    wal_read (file_header seq ++ concat (map encode_entry es1) ++
              (entry_header (lenN (e_data e)) (e_ts e) (e_crc e) ++ data' ++ rest))
    = Ok (seq, es1).
  Proof.
    intros seq es1 e data' rest Hs Hwf (Hc & Hc32 & Hts & Hlen) Hl Hne.
    rewrite <- Hl in *. now apply bad_crc_stops.
  Qed.

  Lemma checksum_corruption_stops : forall seq es1 e ck' rest,
    seq < U64 -> Forall wf_entry es1 -> wf_entry e -> ck' < U32 -> ck' <> e_crc e ->
    wal_read (file_header seq ++ concat (map encode_entry es1) ++
              (entry_header (lenN (e_data e)) (e_ts e) ck' ++ e_data e ++ rest))
    = Ok (seq, es1).
  Proof.
    intros seq es1 e ck' rest Hs Hwf (Hc & Hc32 & Hts & Hlen) Hck Hne.
    apply bad_crc_stops; auto. congruence.
  Qed.

  Lemma length_corruption_stops : forall seq es1 e len' body,
    seq < U64 -> Forall wf_entry es1 -> wf_entry e -> len' < U32 ->
    (lenN body < len' \/ crc (takeN len' body) <> e_crc e) ->
    wal_read (file_header seq ++ concat (map encode_entry es1) ++
              (entry_header len' (e_ts e) (e_crc e) ++ body))
    = Ok (seq, es1).
  Proof.
    intros seq es1 e len' body Hs Hwf (Hc & Hc32 & Hts & Hlen) Hl H.
    apply wal_read_stops; auto. right. apply decode_bad_len; auto.
  Qed.

  Definition set_ts (e : entry) (ts' : N) : entry := Entry ts' (e_data e) (e_crc e).

  Lemma stamp_corruption_accepted : forall seq es1 e es2 ts',
    seq < U64 -> Forall wf_entry es1 -> wf_entry e -> Forall wf_entry es2 -> ts' < U64 ->
    wal_read (file_header seq ++ concat (map encode_entry es1) ++
              (entry_header (lenN (e_data e)) ts' (e_crc e) ++ e_data e) ++
              concat (map encode_entry es2))
    = Ok (seq, es1 ++ set_ts e ts' :: es2).
  Proof.
    intros seq es1 e es2 ts' Hs H1 (Hc & Hc32 & _ & Hlen) H2 Hts.
    pose proof (read_roundtrip seq (es1 ++ set_ts e ts' :: es2) Hs) as R.
    unfold file_image in R. rewrite map_app, concat_app in R. apply R.
    apply Forall_app. split; auto. constructor; auto. now repeat split.
  Qed.

  Lemma file_header_damage : forall h es, lenN h = 16 -> Forall wf_entry es ->
    wal_read (h ++ concat (map encode_entry es)) = Err WCorrupt \/
    exists s, wal_read (h ++ concat (map encode_entry es)) = Ok (s, es).
  Proof.
    intros h es Hh Hwf. unfold Wal.wal_read.
    destruct (wal_open_cases (h ++ concat (map encode_entry es))) as [->|[s ->]]; [left; reflexivity|].
    right. exists s. cbn [rbind]. rewrite wal_entries_any_header by auto.
    rewrite <- (app_nil_r (concat (map encode_entry es))).
    rewrite read_loop_entries; auto.
  Qed.

  Lemma wal_read_sound : forall img s es, Forall byte_lt img -> wal_read img = Ok (s, es) ->
    exists hdr tail, img = hdr ++ concat (map encode_entry es) ++ tail /\ lenN hdr = 16 /\
                     (tail = [] \/ decode_entry tail = Ok None) /\
                     Forall (fun e => e_crc e = crc (e_data e)) es.
  Proof.
    intros img s es Hwf H. unfold Wal.wal_read in H.
    destruct (N.lt_ge_cases (lenN img) 16) as [Hs|Hs].
    { rewrite wal_open_short in H by auto. discriminate. }
    destruct (wal_open img); try discriminate.
    destruct (wal_entries img) as [es'| |] eqn:E; try discriminate.
    injection H as _ <-.
    rewrite <- (takeN_dropN _ 16 img) in Hwf. apply Forall_app in Hwf as [_ Hwf].
    apply read_loop_sound in E as (tail & Ed & Ht & Hall); [|assumption].
    exists (takeN 16 img), tail. rewrite <- Ed, takeN_dropN, lenN_takeN. repeat split; auto. lia.
  Qed.

  Notation file_entries := (file_entries crc).
  Notation recover_all := (recover_all crc).
  Notation collect_files := (collect_files crc).

  Definition contrib (f : N * (bytes * bytes)) : list entry := file_entries (snd (snd f)).

  Lemma file_entries_cases : forall img,
    (wal_read img = Err WCorrupt /\ file_entries img = []) \/
    (exists s es, wal_read img = Ok (s, es) /\ file_entries img = es).
  Proof.
    intros img. unfold Wal.file_entries.
    destruct (wal_read_cases img) as [H|(s & es & H)]; rewrite H; [left|right]; eauto.
  Qed.

  Lemma collect_files_eq : forall fs : list (N * (bytes * bytes)),
    collect_files fs = Ok (concat (map contrib fs)).
  Proof.
    induction fs as [|[s [n img]] r IH]; cbn [Wal.collect_files map concat]; auto.
    change (contrib (s, (n, img))) with (file_entries img).
    destruct (file_entries_cases img) as [[H1 H2]|(s' & es & H1 & H2)]; rewrite H1, H2, IH; reflexivity.
  Qed.

  Lemma recover_all_eq : forall st,
    recover_all st = Ok (concat (map contrib (sorted_files st))).
  Proof. intros. apply collect_files_eq. Qed.

  Lemma recover_all_no_panic : forall st, recover_all st <> Panic.
  Proof. intros. rewrite recover_all_eq. discriminate. Qed.

  Lemma contribution_present : forall st n img s,
    In (n, img) st -> parse_wal_sequence n = Some s ->
    exists pre post, recover_all st = Ok (pre ++ file_entries img ++ post).
  Proof.
    intros st n img s Hin Hp. rewrite recover_all_eq.
    destruct (in_split (s, (n, img)) (sorted_files st)) as (l1 & l2 & ->); [apply sorted_files_In; split; assumption|].
    exists (concat (map contrib l1)), (concat (map contrib l2)).
    now rewrite map_app, concat_app.
  Qed.

  Lemma files_independent : forall st1 name st2,
    exists pre post, forall img,
      recover_all (st1 ++ (name, img) :: st2) =
      Ok (pre ++ (match parse_wal_sequence name with Some _ => file_entries img | None => [] end) ++ post).
  Proof.
    intros st1 name st2. destruct (parse_wal_sequence name) as [s|] eqn:Hp.
    - destruct (sort_slot (wal_files st1) (wal_files st2) s) as (before & after & H).
      exists (concat (map contrib before)), (concat (map contrib after)). intros img.
      rewrite recover_all_eq. unfold sorted_files. rewrite wal_files_app. cbn [wal_files].
      rewrite Hp, H, map_app, concat_app. reflexivity.
    - exists (concat (map contrib (sorted_files (st1 ++ st2)))), [].
      intros img. rewrite recover_all_eq. unfold sorted_files.
      rewrite !wal_files_app. cbn [wal_files]. rewrite Hp, !app_nil_r. reflexivity.
  Qed.

  Section Trunc.
    Variables (active : option bytes) (T : N) (dfail : bytes -> bool).
    Notation trunc_loop := (trunc_loop crc active T dfail).

    Definition removes_only_old (st st' : store) (r : res werr N) : Prop :=
      r <> Panic /\ exists keep, st' = filter keep st /\
        forall f, In f st -> keep f = false ->
          active <> Some (fst f) /\ forall e, In e (file_entries (snd f)) -> e_ts e <= T.

    Lemma removes_nothing : forall st r, r <> Panic -> removes_only_old st st r.
    Proof.
      intros st r Hr. split; [exact Hr|].
      exists (fun _ => true). split; [now rewrite filter_all|discriminate].
    Qed.

    Lemma trunc_loop_spec : forall names st cnt st' r,
      NoDup (map fst st) -> trunc_loop names st cnt = (st', r) -> removes_only_old st st' r.
    Proof.
      induction names as [|name rest IH]; intros st cnt st' r Hnd H; cbn [Wal.trunc_loop] in H.
      - injection H as <- <-. now apply removes_nothing.
      - destruct (match active with Some a => bytes_eqb a name | None => false end) eqn:Eact.
        { eapply IH; eauto. }
        destruct (st_lookup name st) as [img|] eqn:El; [|eapply IH; eauto].
        destruct (file_entries_cases img) as [[H1 H2]|(s & es & H1 & H2)]; rewrite H1 in H.
        { eapply IH; eauto. }
        destruct (match es with [] => true | _ => max_ts es <=? T end) eqn:Edel; [|eapply IH; eauto].
        destruct (dfail name).
        { injection H as <- <-. now apply removes_nothing. }
        apply IH in H as (Hr & keep2 & -> & Hk); [|now apply NoDup_map_filter].
        split; [assumption|].
        exists (fun f => negb (bytes_eqb (fst f) name) && keep2 f). split; [apply filter_filter_and|].
        intros [n i] Hf Hkeep. cbn [fst snd] in *.
        destruct (bytes_eqb n name) eqn:En; cbn [negb andb] in Hkeep.
        + (* the file just deleted *)
          apply bytes_eqb_eq in En. subst n.
          rewrite (st_lookup_NoDup st name i Hnd Hf) in El. injection El as ->. split.
          * intros ->. rewrite bytes_eqb_refl in Eact. discriminate.
          * intros e He. rewrite H2 in He. destruct es as [|e0 es']; [destruct He|].
            apply N.leb_le in Edel. pose proof (max_ts_ge _ _ He). lia.
        + apply (Hk (n, i)); auto. apply st_delete_In. split; auto.
          now apply bytes_eqb_neq in En.
    Qed.
  End Trunc.

  (* [st'] is a [filter] of [st]; [filter] commutes with [wal_files] and with the stable sort,
     and a dropped file contributes no entry stamped later than T *)
  Lemma truncate_exact : forall st active T dfail st' r,
    NoDup (map fst st) -> truncate_before crc st active T dfail = (st', r) ->
    exists l l', recover_all st = Ok l /\ recover_all st' = Ok l' /\
      filter (fun e => T <? e_ts e) l' = filter (fun e => T <? e_ts e) l.
  Proof.
    intros st active T dfail st' r Hnd H. unfold truncate_before in H.
    apply trunc_loop_spec in H as (_ & keep & -> & Hk); auto.
    rewrite !recover_all_eq. do 2 eexists. split; [reflexivity|]. split; [reflexivity|].
    unfold sorted_files. rewrite wal_files_filter, sort_filter.
    apply (filter_concat_dropped _ _ _ _ (fun x => keep (snd x))).
    intros [s [n img]] Hx Hkx e He. apply sorted_files_In in Hx as [Hin _].
    apply N.ltb_ge. now apply (Hk (n, img) Hin Hkx).
  Qed.

  Lemma truncate_safe : forall st active T dfail st' r,
    NoDup (map fst st) -> truncate_before crc st active T dfail = (st', r) ->
    r <> Panic /\
    (forall f, In f st' -> In f st) /\
    (forall a img, active = Some a -> In (wal_file_name a, img) st -> In (wal_file_name a, img) st') /\
    exists l l', recover_all st = Ok l /\ recover_all st' = Ok l' /\
                 (forall e, In e l -> T < e_ts e -> In e l').
  Proof.
    intros st active T dfail st' r Hnd H.
    destruct (truncate_exact _ _ _ _ _ _ Hnd H) as (l & l' & Hl & Hl' & Hf).
    unfold truncate_before in H. apply trunc_loop_spec in H as (Hr & keep & -> & Hk); auto.
    split; [assumption|]. split; [|split].
    - intros f Hin. apply filter_In in Hin. apply Hin.
    - intros a img -> Hin. apply filter_In. split; [assumption|].
      destruct (keep _) eqn:E; [reflexivity|]. exfalso. apply (proj1 (Hk _ Hin E)). reflexivity.
    - exists l, l'. repeat split; auto. intros e He Hlt.
      (* e passes the filter on l, hence on l' *)
      assert (Hin : In e (filter (fun e => T <? e_ts e) l)).
      { apply filter_In. split; [assumption|now apply N.ltb_lt]. }
      rewrite <- Hf in Hin. apply filter_In in Hin. apply Hin.
  Qed.
End WalProofs.

(* class predicate: the image differs from the written one only inside the length / timestamp
   fields (bytes 0..12) of one entry header *)
Definition HeaderFieldDamage (seq : N) (es : list entry) (img' : bytes) : Prop :=
  exists es1 e es2 len' ts',
    es = es1 ++ e :: es2 /\ len' < U32 /\ ts' < U64 /\
    (len', ts') <> (lenN (e_data e), e_ts e) /\
    img' = file_header seq ++ concat (map encode_entry es1) ++
           (entry_header len' ts' (e_crc e) ++ e_data e) ++ concat (map encode_entry es2).

Definition is_prefix (a b : list entry) : Prop := exists r, b = a ++ r.

Definition wit_es : list entry := [mk_entry crc32 9 []].
(* the empty appends make the image match [HeaderFieldDamage] by [reflexivity] *)
Definition wit_img' : bytes :=
  file_header 1 ++ (entry_header 0 73 0 ++ []) ++ [].

Lemma header_field_witness :
  HeaderFieldDamage 1 wit_es wit_img' /\
  wal_read crc32 wit_img' = Ok (1, [Entry 73 [] 0]) /\
  ~ is_prefix [Entry 73 [] 0] wit_es.
Proof.
  split; [|split].
  - exists [], (mk_entry crc32 9 []), [], 0, 73. repeat split; try reflexivity.
    cbn. intros H. inversion H.
  - vm_compute. reflexivity.
  - intros [r H]. vm_compute in H. inversion H.
Qed.

Lemma wf_example : Forall (wf_entry crc32) [mk_entry crc32 9 [1; 2; 3]; mk_entry crc32 4 []; mk_entry crc32 7 [255]].
Proof. repeat constructor; vm_compute; reflexivity. Qed.

Lemma zero_tail_witness :
  wal_read crc32 (file_image 1 [] ++ repeat 0 32) = Ok (1, [Entry 0 [] 0; Entry 0 [] 0]).
Proof. vm_compute. reflexivity. Qed.
