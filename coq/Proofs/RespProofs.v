(* Lemmas about Model/Resp.v: the decoders never reach Panic / OutOfFuel, consume exactly
   one frame, are stable under extension of the input, request bounded memory, invert
   the encoder, and cut a stream into the same frames however it is fragmented.

   The four frame parsers begin alike: find the first CR LF, cut the line before it, and
   (bulk strings, arrays) read a length from it.  [with_line] and [with_len] are that
   common beginning with the rest as a continuation; each property is proved once for
   them and once for each continuation. *)
From Coq Require Import NArith ZArith List Bool Lia Arith.
From RV Require Import Lib.Hex Lib.ListFacts Model.Resp.
Import ListNotations.

Lemma find_crlf_cons2 x y t :
  find_crlf (x :: y :: t) =
  if (x =? 13)%N && (y =? 10)%N then Some 0
  else match find_crlf (y :: t) with Some p => Some (S p) | None => None end.
Proof. reflexivity. Qed.

Lemma find_crlf_bound b p : find_crlf b = Some p -> p + 2 <= length b.
Proof.
  revert p. induction b as [|x t IH]; intros p H; [discriminate|].
  destruct t as [|y t']; [discriminate|].
  rewrite find_crlf_cons2 in H.
  destruct ((x =? 13)%N && (y =? 10)%N).
  - inversion H. cbn. lia.
  - destruct (find_crlf (y :: t')) as [q|] eqn:E; [|discriminate].
    inversion H. specialize (IH q eq_refl). cbn in *. lia.
Qed.

Lemma find_crlf_app b x p : find_crlf b = Some p -> find_crlf (b ++ x) = Some p.
Proof.
  revert p. induction b as [|a t IH]; intros p H; [discriminate|].
  destruct t as [|y t']; [discriminate|].
  rewrite find_crlf_cons2 in H. cbn [app]. rewrite find_crlf_cons2.
  destruct ((a =? 13)%N && (y =? 10)%N); [exact H|].
  destruct (find_crlf (y :: t')) as [q|] eqn:E; [|discriminate].
  change (y :: t' ++ x) with ((y :: t') ++ x). rewrite (IH q eq_refl). exact H.
Qed.

Lemma find_crlf_firstn b n p : find_crlf b = Some p -> p + 2 <= n -> find_crlf (firstn n b) = Some p.
Proof.
  revert n p. induction b as [|a t IH]; intros n p H Hn; [discriminate|].
  destruct t as [|y t']; [discriminate|].
  rewrite find_crlf_cons2 in H.
  destruct n as [|[|n]]; try lia.
  cbn [firstn]. rewrite find_crlf_cons2.
  destruct ((a =? 13)%N && (y =? 10)%N); [exact H|].
  destruct (find_crlf (y :: t')) as [q|] eqn:E; [|discriminate].
  inversion H; subst p.
  change (y :: firstn n t') with (firstn (S n) (y :: t')).
  rewrite (IH (S n) q eq_refl) by lia. reflexivity.
Qed.

Lemma find_crlf_head c t : find_crlf (c :: t) = Some 0 -> c = 13%N.
Proof.
  destruct t as [|y t']; [discriminate|]. rewrite find_crlf_cons2.
  destruct ((c =? 13)%N && (y =? 10)%N) eqn:E.
  - intros _. apply andb_prop in E. apply N.eqb_eq, E.
  - destruct (find_crlf (y :: t')); discriminate.
Qed.

Lemma find_crlf_line s x : Forall (fun c => c <> 13%N) s -> find_crlf (s ++ 13%N :: 10%N :: x) = Some (length s).
Proof.
  induction 1 as [|c s Hc Hs IH]; [reflexivity|].
  cbn [app length].
  destruct (s ++ 13%N :: 10%N :: x) as [|y r] eqn:E.
  - destruct s; discriminate.
  - rewrite find_crlf_cons2. replace (c =? 13)%N with false by (symmetry; now apply N.eqb_neq).
    cbn [andb]. rewrite IH. reflexivity.
Qed.

Lemma slice_some b a e s : slice b a e = Some s ->
  a <= e /\ e <= length b /\ s = firstn (e - a) (skipn a b) /\ length s = e - a.
Proof.
  unfold slice. destruct (a <=? e) eqn:E1; [|discriminate].
  destruct (e <=? length b) eqn:E2; [|discriminate]. cbn [andb].
  apply Nat.leb_le in E1. apply Nat.leb_le in E2. intros H; inversion H; subst s.
  repeat split; try assumption.
  rewrite firstn_length, skipn_length. lia.
Qed.

Lemma slice_ok b a e : a <= e -> e <= length b -> slice b a e = Some (firstn (e - a) (skipn a b)).
Proof.
  intros H1 H2. unfold slice.
  apply Nat.leb_le in H1. apply Nat.leb_le in H2. now rewrite H1, H2.
Qed.

Lemma slice_app b x a e s : slice b a e = Some s -> slice (b ++ x) a e = Some s.
Proof.
  intros H. destruct (slice_some _ _ _ _ H) as (H1 & H2 & -> & _).
  rewrite slice_ok; [|lia|rewrite app_length; lia].
  rewrite skipn_app_le by lia. rewrite firstn_app_le; [reflexivity|].
  rewrite skipn_length. lia.
Qed.

Lemma slice_firstn b n a e s : slice b a e = Some s -> e <= n -> slice (firstn n b) a e = Some s.
Proof.
  intros H Hn. destruct (slice_some _ _ _ _ H) as (H1 & H2 & -> & _).
  rewrite slice_ok; [|lia|rewrite firstn_length; lia].
  rewrite skipn_firstn_comm. rewrite firstn_firstn. f_equal. f_equal. lia.
Qed.

Lemma parse_i64_range s z : parse_i64 s = Some z -> (- Z.of_N I64_LIM <= z < Z.of_N I64_LIM)%Z.
Proof.
  unfold parse_i64. destruct s as [|c t]; [discriminate|].
  destruct (if (c =? 45)%N || (c =? 43)%N then t else c :: t) as [|d ds]; [discriminate|].
  destruct (digits_val (d :: ds) 0) as [n|]; [|discriminate].
  destruct (c =? 45)%N.
  - destruct (n <=? I64_LIM)%N eqn:E; [|discriminate]. apply N.leb_le in E.
    intros H; inversion H. unfold I64_LIM in *. lia.
  - destruct (n <? I64_LIM)%N eqn:E; [|discriminate]. apply N.ltb_lt in E.
    intros H; inversion H. unfold I64_LIM in *. lia.
Qed.

Definition decided (o : outcome) : Prop :=
  match o with Done _ _ | Err _ => True | _ => False end.

(* Rust slices are at most isize::MAX = 2^63 - 1 bytes long; we assume < 2^62 *)
Definition size_ok (b : bytes) : Prop := (Z.of_nat (length b) < 4611686018427387904)%Z.

Lemma size_ok_skipn b n : size_ok b -> size_ok (skipn n b).
Proof. unfold size_ok. rewrite skipn_length. lia. Qed.

Lemma size_ok_app_l b x : size_ok (b ++ x) -> size_ok b.
Proof. unfold size_ok. rewrite app_length. lia. Qed.

(* the bounds compared as numbers, once: the proofs below use these two lemmas and keep I64_LIM and
   USIZE_LIM folded *)
Lemma size_ok_i64 b n : size_ok b -> n <= length b -> (N.of_nat n < I64_LIM)%N.
Proof. unfold size_ok, I64_LIM. lia. Qed.

Lemma size_ok_usize b start len : size_ok b -> start <= length b -> (len < Z.of_N I64_LIM)%Z ->
  (Z.of_nat start + len + 2 < USIZE_LIM)%Z.
Proof. unfold size_ok, I64_LIM, USIZE_LIM. lia. Qed.

Lemma fst_tick a r : fst (tick a r) = fst r.
Proof. reflexivity. Qed.

(* What a result may be, whatever the input was: a frame of [lo] to [hi] bytes; a panic only
   if the proposition [size] (the input is short enough) fails, running out of fuel only if
   [fuel] (the fuel suffices) fails; never a request for more than ELEM_SIZE bytes per byte
   of an input of length [hi]. *)
Definition sound (fuel size : Prop) (lo hi : nat) (r : outcome * N) : Prop :=
  match fst r with
  | Done _ c => lo <= c <= hi
  | Panic => ~ size
  | OutOfFuel => ~ fuel
  | _ => True
  end /\ (snd r <= ELEM_SIZE * N.of_nat hi)%N.

Lemma sound_incomplete {fuel size lo hi} : sound fuel size lo hi (Incomplete, 0%N).
Proof. split; [exact I|apply N.le_0_l]. Qed.

Lemma sound_err {fuel size lo hi} e : sound fuel size lo hi (Err e, 0%N).
Proof. split; [exact I|apply N.le_0_l]. Qed.

Lemma sound_panic {fuel size : Prop} {lo hi} : ~ size -> sound fuel size lo hi (Panic, 0%N).
Proof. intros H. split; [exact H|apply N.le_0_l]. Qed.

Lemma sound_done0 {fuel size lo hi} v c : lo <= c <= hi -> sound fuel size lo hi (Done v c, 0%N).
Proof. intros H. split; [exact H|apply N.le_0_l]. Qed.

Lemma sound_tick {fuel size lo hi} a r : (a <= ELEM_SIZE * N.of_nat hi)%N ->
  sound fuel size lo hi r -> sound fuel size lo hi (tick a r).
Proof. intros Ha [H1 H2]. split; [exact H1|]. now apply N.max_lub. Qed.

Lemma sound_done {fuel size lo hi r} : sound fuel size lo hi r ->
  forall v c, fst r = Done v c -> lo <= c <= hi.
Proof. intros [H _] v c E. now rewrite E in H. Qed.

Lemma sound_no_panic {fuel size : Prop} {lo hi r} : sound fuel size lo hi r -> size -> fst r <> Panic.
Proof. intros [H _] Hs E. rewrite E in H. exact (H Hs). Qed.

Lemma sound_no_oof {fuel size : Prop} {lo hi r} : sound fuel size lo hi r -> fuel -> fst r <> OutOfFuel.
Proof. intros [H _] Hf E. rewrite E in H. exact (H Hf). Qed.

Lemma sound_alloc {fuel size lo hi r} : sound fuel size lo hi r ->
  (snd r <= ELEM_SIZE * N.of_nat hi)%N.
Proof. intros H. apply H. Qed.

Lemma sound_weaken {fuel size fuel' size' : Prop} {lo hi lo' hi' r} :
  sound fuel size lo hi r ->
  (fuel' -> fuel) -> (size' -> size) -> lo' <= lo -> hi <= hi' -> sound fuel' size' lo' hi' r.
Proof.
  intros [H1 H2] Hf Hs Hlo Hhi. split.
  - destruct (fst r); tauto || lia.
  - etransitivity; [exact H2|]. apply N.mul_le_mono_l. lia.
Qed.

Definition SoundDec (rec : bytes -> outcome * N) :=
  forall s, sound True (size_ok s) 1 (length s) (rec s).

Definition Bnd (rec : bytes -> outcome * N) :=
  forall s v c, fst (rec s) = Done v c -> 1 <= c <= length s.
Definition Ext (rec : bytes -> outcome * N) :=
  forall s x o, fst (rec s) = o -> decided o -> fst (rec (s ++ x)) = o.
Definition Exact (rec : bytes -> outcome * N) :=
  forall s v c, fst (rec s) = Done v c -> fst (rec (firstn c s)) = Done v c.

Lemma SoundDec_Bnd rec : SoundDec rec -> Bnd rec.
Proof. intros H s. exact (sound_done (H s)). Qed.

(* Ext and Exact are two faces of one fact: a decided answer depends only on the bytes
   that were read, the frame for Done, all of the input for Err. *)
Definition agree (n : nat) (s s' : bytes) : Prop := n <= length s /\ firstn n s' = firstn n s.

Definition span (o : outcome) (s : bytes) : nat :=
  match o with Done _ c => c | _ => length s end.

Definition Stable (rec : bytes -> outcome * N) :=
  forall s s' o, fst (rec s) = o -> decided o -> agree (span o s) s s' -> fst (rec s') = o.

Lemma agree_length n s s' : agree n s s' -> n <= length s'.
Proof.
  intros [Hn H]. apply (f_equal (@length N)) in H. rewrite !firstn_length in H. lia.
Qed.

Lemma agree_le n m s s' : m <= n -> agree n s s' -> agree m s s'.
Proof.
  intros Hm [Hn H]. split; [lia|].
  rewrite <- (Nat.min_l m n Hm), <- !firstn_firstn. now rewrite H.
Qed.

Lemma agree_head n h t s' : 1 <= n -> agree n (h :: t) s' -> exists t', s' = h :: t'.
Proof.
  intros Hn [_ Ha]. destruct n; [lia|]. destruct s' as [|h' t']; [discriminate|].
  cbn [firstn] in Ha. inversion Ha. eauto.
Qed.

Lemma agree_skipn n s s' off c : off + c <= n -> agree n s s' -> agree c (skipn off s) (skipn off s').
Proof.
  intros Hc Ha. apply (agree_le _ _ _ _ Hc) in Ha. destruct Ha as [Hn H].
  split; [rewrite skipn_length; lia|].
  replace c with (off + c - off) by lia. rewrite <- !skipn_firstn_comm. now rewrite H.
Qed.

Lemma find_crlf_agree n b b' p : agree n b b' -> find_crlf b = Some p -> p + 2 <= n ->
  find_crlf b' = Some p.
Proof.
  intros [_ H] Hf Hp. rewrite <- (firstn_skipn n b'), H. now apply find_crlf_app, find_crlf_firstn.
Qed.

Lemma slice_agree n b b' a e s : agree n b b' -> slice b a e = Some s -> e <= n ->
  slice b' a e = Some s.
Proof.
  intros [_ H] Hs He. rewrite <- (firstn_skipn n b'), H. now apply slice_app, slice_firstn.
Qed.

Lemma Stable_Ext rec : Bnd rec -> Stable rec -> Ext rec.
Proof.
  intros Hb Hs s x o H D. apply (Hs s _ o H D). split.
  - destruct o; cbn [span]; try lia. now apply (Hb s v).
  - apply firstn_app_le. destruct o; cbn [span]; try lia. now apply (Hb s v).
Qed.

Lemma Stable_Exact rec : Bnd rec -> Stable rec -> Exact rec.
Proof.
  intros Hb Hs s v c H. apply (Hs s _ _ H I). split; [now apply (Hb s v)|].
  cbn [span]. now rewrite firstn_firstn, Nat.min_id.
Qed.

Definition with_line (b : bytes) (k : nat -> bytes -> outcome * N) : outcome * N :=
  match find_crlf b with
  | None => (Incomplete, 0%N)
  | Some pos =>
    match slice b 1 pos with
    | None => (Panic, 0%N)
    | Some s => k pos s
    end
  end.

Definition with_len (nil : resp) (b : bytes) (k : nat -> Z -> outcome * N) : outcome * N :=
  with_line b (fun pos s =>
    match parse_i64 s with
    | None => (Err EBadInt, 0%N)
    | Some len =>
      if (len =? -1)%Z then (Done nil (pos + 2), 0%N)
      else if (len <? 0)%Z then (Err ENegLen, 0%N)
      else k (pos + 2) len
    end).

Definition line_k (mk : bytes -> resp) (pos : nat) (s : bytes) : outcome * N :=
  (Done (mk s) (pos + 2), N.of_nat (length s)).

Definition integer_k (pos : nat) (s : bytes) : outcome * N :=
  match parse_i64 s with
  | None => (Err EBadInt, 0%N)
  | Some z => (Done (RInt z) (pos + 2), 0%N)
  end.

Definition bulk_body (b : bytes) (start : nat) (len : Z) : outcome * N :=
  let e := (Z.of_nat start + len)%Z in
  if (USIZE_LIM <=? e)%Z then (Panic, 0%N)
  else if (USIZE_LIM <=? e + 2)%Z then (Panic, 0%N)
  else if (Z.of_nat (length b) <? e + 2)%Z then (Incomplete, 0%N)
  else
    let n := Z.to_nat len in
    match slice b start (start + n) with
    | None => (Panic, 0%N)
    | Some data => (Done (RBulk data) (start + n + 2), N.of_nat n)
    end.

Definition array_body (codec : bool) (rec : bytes -> outcome * N) (b : bytes) (start : nat) (len : Z) :=
  if length b <? start then (Panic, 0%N)
  else
    let cap := if codec then N.min (Z.to_N len) (N.of_nat (length b - start)) else 0%N in
    tick (ELEM_SIZE * cap) (arr_loop codec rec (length b) b (Z.to_N len) start []).

Lemma parse_line_eq mk b : parse_line mk b = with_line b (line_k mk).
Proof. reflexivity. Qed.

Lemma parse_integer_eq b : parse_integer b = with_line b integer_k.
Proof. reflexivity. Qed.

Lemma parse_bulk_eq b : parse_bulk b = with_len RNilBulk b (bulk_body b).
Proof. reflexivity. Qed.

Lemma parse_array_eq codec rec b : parse_array codec rec b = with_len RNilArr b (array_body codec rec b).
Proof. reflexivity. Qed.

(* with a first byte other than CR the line cut never panics *)
Lemma with_line_sound (fuel size : Prop) lo hi b k : hd 0%N b <> 13%N ->
  (forall pos s, pos + 2 <= length b -> S (length s) = pos -> sound fuel size lo hi (k pos s)) ->
  sound fuel size lo hi (with_line b k).
Proof.
  intros Hc Hk. unfold with_line.
  destruct (find_crlf b) as [pos|] eqn:Hf; [|apply sound_incomplete].
  pose proof (find_crlf_bound _ _ Hf).
  assert (pos <> 0) by (intros ->; destruct b; [discriminate|]; apply Hc; eapply find_crlf_head; eauto).
  rewrite slice_ok by lia. apply Hk; [lia|]. rewrite firstn_length, skipn_length. lia.
Qed.

Lemma with_len_sound (fuel size : Prop) nil b k : hd 0%N b <> 13%N ->
  (forall start len, 2 <= start <= length b -> (0 <= len < Z.of_N I64_LIM)%Z ->
                     sound fuel size 1 (length b) (k start len)) ->
  sound fuel size 1 (length b) (with_len nil b k).
Proof.
  intros Hc Hk. apply with_line_sound; [exact Hc|]. intros pos s Hp _.
  destruct (parse_i64 s) as [len|] eqn:Hi; [|apply sound_err].
  apply parse_i64_range in Hi.
  destruct (len =? -1)%Z; [apply sound_done0; lia|].
  destruct (len <? 0)%Z eqn:E; [apply sound_err|]. apply Z.ltb_ge in E. apply Hk; lia.
Qed.

(* [K b] is the rest of a parser of [b] behind the header line, as in [bulk_body b] *)
Lemma with_line_stable (K : bytes -> nat -> bytes -> outcome * N) b b' o :
  fst (with_line b (K b)) = o -> decided o -> agree (span o b) b b' ->
  (forall pos s, pos + 2 <= length b -> fst (K b pos s) = o ->
                 pos + 2 <= span o b /\ fst (K b' pos s) = o) ->
  fst (with_line b' (K b')) = o.
Proof.
  unfold with_line. intros H D Ha Hk.
  destruct (find_crlf b) as [pos|] eqn:Hf; [|cbn in H; subst o; destruct D].
  destruct (slice b 1 pos) as [s|] eqn:Hs; [|cbn in H; subst o; destruct D].
  destruct (Hk pos s (find_crlf_bound _ _ Hf) H) as [Hn H'].
  rewrite (find_crlf_agree _ _ _ _ Ha Hf Hn), (slice_agree _ _ _ _ _ _ Ha Hs) by lia. exact H'.
Qed.

Lemma with_len_stable nil (K : bytes -> nat -> Z -> outcome * N) b b' o :
  fst (with_len nil b (K b)) = o -> decided o -> agree (span o b) b b' ->
  (forall start len, 2 <= start <= length b -> (0 <= len)%Z -> fst (K b start len) = o ->
                     start <= span o b /\ fst (K b' start len) = o) ->
  fst (with_len nil b' (K b')) = o.
Proof.
  intros H D Ha Hk. unfold with_len in *.
  apply (with_line_stable (fun b pos s => _) b b' o H D Ha). intros pos s Hp.
  destruct (parse_i64 s) as [len|]; [|intros <-; cbn; auto].
  destruct (len =? -1)%Z; [intros <-; cbn; auto|].
  destruct (len <? 0)%Z eqn:E; [intros <-; cbn; auto|]. apply Z.ltb_ge in E. apply Hk; lia.
Qed.

Lemma parse_line_sound (size : Prop) mk b : hd 0%N b <> 13%N ->
  sound True size 1 (length b) (parse_line mk b).
Proof.
  intros Hc. apply with_line_sound; [exact Hc|]. intros pos s Hp Hs.
  split; [cbn; lia|cbn [snd]; unfold ELEM_SIZE; lia].
Qed.

Lemma parse_line_stable mk : Stable (parse_line mk).
Proof.
  intros s s' o H D Ha. apply (with_line_stable (fun _ => line_k mk) s s' o H D Ha).
  intros pos l Hp E. split; [|exact E]. rewrite <- E. cbn. lia.
Qed.

Lemma parse_integer_sound (size : Prop) b : hd 0%N b <> 13%N ->
  sound True size 1 (length b) (parse_integer b).
Proof.
  intros Hc. apply with_line_sound; [exact Hc|]. intros pos s Hp _. unfold integer_k.
  destruct (parse_i64 s); [apply sound_done0; lia|apply sound_err].
Qed.

Lemma parse_integer_stable : Stable parse_integer.
Proof.
  intros s s' o H D Ha. apply (with_line_stable (fun _ => integer_k) s s' o H D Ha).
  intros pos l Hp E. split; [|exact E]. rewrite <- E. unfold integer_k.
  destruct (parse_i64 l); cbn; lia.
Qed.

Lemma parse_bulk_sound b : hd 0%N b <> 13%N -> sound True (size_ok b) 1 (length b) (parse_bulk b).
Proof.
  intros Hc. rewrite parse_bulk_eq. apply with_len_sound; [exact Hc|].
  intros start len Hst Hlen. unfold bulk_body. cbv zeta.
  assert (Hu : size_ok b -> (Z.of_nat start + len + 2 < USIZE_LIM)%Z)
    by (intros Hz; apply (size_ok_usize b); tauto).
  destruct (USIZE_LIM <=? Z.of_nat start + len)%Z eqn:E3.
  { apply sound_panic. intros Hz. apply Z.leb_le in E3. specialize (Hu Hz). lia. }
  destruct (USIZE_LIM <=? Z.of_nat start + len + 2)%Z eqn:E4.
  { apply sound_panic. intros Hz. apply Z.leb_le in E4. specialize (Hu Hz). lia. }
  destruct (Z.of_nat (length b) <? _)%Z eqn:E5; [apply sound_incomplete|]. apply Z.ltb_ge in E5.
  rewrite slice_ok by lia.
  split; [cbn; lia|cbn [snd]; unfold ELEM_SIZE; lia].
Qed.

Lemma parse_bulk_stable : Stable parse_bulk.
Proof.
  intros s s' o H D Ha. rewrite parse_bulk_eq in *. apply (with_len_stable _ bulk_body s s' o H D Ha).
  intros start len Hst Hlen. unfold bulk_body. cbv zeta.
  destruct (USIZE_LIM <=? Z.of_nat start + len)%Z; [intros <-; destruct D|].
  destruct (USIZE_LIM <=? Z.of_nat start + len + 2)%Z; [intros <-; destruct D|].
  destruct (Z.of_nat (length s) <? _)%Z; [intros <-; destruct D|].
  destruct (slice s start _) as [d|] eqn:Hd; [|intros <-; destruct D].
  intros <-. cbn [fst span] in *. pose proof (agree_length _ _ _ Ha).
  replace (Z.of_nat (length s') <? _)%Z with false by (symmetry; apply Z.ltb_ge; lia).
  rewrite (slice_agree _ _ _ _ _ _ Ha Hd) by lia. split; [lia|reflexivity].
Qed.

Lemma arr_loop_zero codec rec lf input cnt off acc : (cnt =? 0)%N = true ->
  arr_loop codec rec lf input cnt off acc = (Done (RArr (rev acc)) off, 0%N).
Proof. intros H. destruct lf; cbn [arr_loop]; now rewrite H. Qed.

Lemma arr_loop_no_fuel codec rec input cnt off acc : (cnt =? 0)%N = false ->
  arr_loop codec rec 0 input cnt off acc = (OutOfFuel, 0%N).
Proof. intros H. cbn [arr_loop]. now rewrite H. Qed.

Lemma arr_loop_S codec rec lf input cnt off acc : (cnt =? 0)%N = false ->
  arr_loop codec rec (S lf) input cnt off acc =
  if codec && (length input <=? off) then (Incomplete, 0%N)
  else if (length input <? off) then (Panic, 0%N)
  else let r := rec (skipn off input) in
       match fst r with
       | Done v c => tick (snd r) (arr_loop codec rec lf input (cnt - 1) (off + c) (v :: acc))
       | _ => r
       end.
Proof. intros H. cbn [arr_loop]. now rewrite H. Qed.

(* The RespCodec-only test for the end of the input. *)
Lemma guard_lt codec (input : bytes) off : off < length input -> codec && (length input <=? off) = false.
Proof. intros H. apply Nat.leb_gt in H. rewrite H. apply andb_false_r. Qed.

Lemma guard_le codec (input input' : bytes) off : length input <= length input' ->
  codec && (length input <=? off) = false -> codec && (length input' <=? off) = false.
Proof.
  destruct codec; [|reflexivity]. cbn [andb]. rewrite !Nat.leb_gt. lia.
Qed.

Section Turn.
  Variables (codec : bool) (rec : bytes -> outcome * N) (lf : nat) (input : bytes)
            (cnt : N) (off : nat) (acc : list resp).
  Hypotheses (Hc : (cnt =? 0)%N = false) (Hg : codec && (length input <=? off) = false)
             (Ho : off <= length input).

  Lemma arr_loop_next v c : fst (rec (skipn off input)) = Done v c ->
    fst (arr_loop codec rec (S lf) input cnt off acc) =
    fst (arr_loop codec rec lf input (cnt - 1) (off + c) (v :: acc)).
  Proof.
    intros E. rewrite arr_loop_S, Hg by exact Hc. apply Nat.ltb_ge in Ho. rewrite Ho.
    cbv zeta. now rewrite E.
  Qed.

  Lemma arr_loop_stop o : fst (rec (skipn off input)) = o ->
    match o with Done _ _ => False | _ => True end ->
    fst (arr_loop codec rec (S lf) input cnt off acc) = o.
  Proof.
    intros E Ho'. rewrite arr_loop_S, Hg by exact Hc. apply Nat.ltb_ge in Ho. rewrite Ho.
    cbv zeta. rewrite E. now destruct o.
  Qed.
End Turn.
Arguments arr_loop_next {codec rec lf input cnt off acc}.
Arguments arr_loop_stop {codec rec lf input cnt off acc}.

(* every element takes at least one byte, so fuel above the bytes left is never used up *)
Lemma arr_loop_sound codec rec (Hr : SoundDec rec) :
  forall lf input cnt off acc, off <= length input ->
    sound (length input < off + lf) (size_ok input) off (length input)
          (arr_loop codec rec lf input cnt off acc).
Proof.
  induction lf as [|lf IH]; intros input cnt off acc Ho;
    (destruct (cnt =? 0)%N eqn:Ec; [rewrite arr_loop_zero by assumption; apply sound_done0; lia|]).
  - rewrite arr_loop_no_fuel by assumption. split; [cbn; lia|apply N.le_0_l].
  - rewrite arr_loop_S by assumption.
    destruct (codec && (length input <=? off)); [apply sound_incomplete|].
    replace (length input <? off) with false by (symmetry; apply Nat.ltb_ge; lia).
    cbv zeta. pose proof (Hr (skipn off input)) as Hs. rewrite skipn_length in Hs.
    assert (Ha : (snd (rec (skipn off input)) <= ELEM_SIZE * N.of_nat (length input))%N).
    { etransitivity; [exact (sound_alloc Hs)|]. apply N.mul_le_mono_l. lia. }
    destruct (fst (rec (skipn off input))) as [v c| | | |] eqn:Er.
    + pose proof (sound_done Hs _ _ Er) as Hc.
      apply sound_tick; [exact Ha|].
      apply (sound_weaken (IH input (cnt - 1)%N (off + c) (v :: acc) ltac:(lia))); auto; lia.
    + split; [now rewrite Er|exact Ha].
    + split; [now rewrite Er|exact Ha].
    + split; [|exact Ha]. rewrite Er. intros Hz.
      exact (sound_no_panic Hs (size_ok_skipn _ _ Hz) Er).
    + destruct (sound_no_oof Hs I Er).
Qed.

Lemma arr_loop_span codec rec (Hr : SoundDec rec) lf input cnt off acc o : off <= length input ->
  fst (arr_loop codec rec lf input cnt off acc) = o -> off <= span o input <= length input.
Proof.
  intros Ho H. destruct o; cbn [span]; try lia.
  exact (sound_done (arr_loop_sound codec rec Hr lf input cnt off acc Ho) _ _ H).
Qed.

(* two fuels, since parse_array takes the length of its input as fuel and the inputs differ *)
Lemma arr_loop_stable codec rec (Hr : SoundDec rec) (Hs : Stable rec) :
  forall lf lf' input input' cnt off acc o,
    off <= length input ->
    fst (arr_loop codec rec lf input cnt off acc) = o -> decided o ->
    agree (span o input) input input' -> span o input < off + lf' ->
    fst (arr_loop codec rec lf' input' cnt off acc) = o.
Proof.
  induction lf as [|lf IH]; intros lf' input input' cnt off acc o Ho H D Ha Hl;
    (destruct (cnt =? 0)%N eqn:Ec; [rewrite arr_loop_zero in * by assumption; exact H|]).
  - rewrite arr_loop_no_fuel in H by assumption. subst o. destruct D.
  - destruct (codec && (length input <=? off)) eqn:G.
    { rewrite arr_loop_S, G in H by assumption. subst o. destruct D. }
    pose proof (arr_loop_span codec rec Hr _ _ _ _ _ _ Ho H) as Hn.
    pose proof (agree_length _ _ _ Ha) as Hn'.
    destruct (fst (rec (skipn off input))) as [v c| |e| |] eqn:Er;
      try (rewrite (arr_loop_stop Ec G Ho _ Er I) in H; subst o; now destruct D).
    + rewrite (arr_loop_next Ec G Ho v c Er) in H.
      pose proof (sound_done (Hr _) _ _ Er) as Hc. rewrite skipn_length in Hc.
      pose proof (arr_loop_span codec rec Hr _ input _ (off + c) _ _ ltac:(lia) H) as Hoc.
      destruct lf' as [|lf']; [lia|].
      rewrite (arr_loop_next Ec) with (v := v) (c := c).
      * apply (IH lf' input); assumption || lia.
      * apply guard_lt. lia.
      * lia.
      * apply (Hs _ _ _ Er I). apply (agree_skipn _ _ _ _ _ (proj1 Hoc) Ha).
    + rewrite (arr_loop_stop Ec G Ho _ Er I) in H. subst o. cbn [span] in *.
      destruct lf' as [|lf']; [lia|].
      apply arr_loop_stop; [exact Ec|now apply (guard_le codec input)|lia| |exact I].
      apply (Hs _ _ _ Er I). cbn [span]. rewrite skipn_length.
      apply agree_skipn with (n := length input); [lia|exact Ha].
Qed.

Lemma parse_array_sound codec rec b : SoundDec rec -> hd 0%N b <> 13%N ->
  sound True (size_ok b) 1 (length b) (parse_array codec rec b).
Proof.
  intros Hr Hc. rewrite parse_array_eq. apply with_len_sound; [exact Hc|].
  intros start len Hst _. unfold array_body.
  replace (length b <? start) with false by (symmetry; apply Nat.ltb_ge; lia).
  apply sound_tick; [apply N.mul_le_mono_l; destruct codec; lia|].
  apply (sound_weaken (arr_loop_sound codec rec Hr (length b) b _ start [] (proj2 Hst))); auto; lia.
Qed.

Lemma parse_array_stable codec rec : SoundDec rec -> Stable rec -> Stable (parse_array codec rec).
Proof.
  intros Hr Hs s s' o H D Ha. rewrite parse_array_eq in *.
  apply (with_len_stable _ (array_body codec rec) s s' o H D Ha).
  intros start len Hst _. unfold array_body. pose proof (agree_length _ _ _ Ha) as Hn.
  destruct (length s <? start) eqn:E3; [intros <-; destruct D|]. rewrite fst_tick. intros E.
  pose proof (arr_loop_span codec rec Hr _ _ _ _ _ _ (proj2 Hst) E) as Hc.
  split; [lia|].
  replace (length s' <? start) with false by (symmetry; apply Nat.ltb_ge; lia).
  rewrite fst_tick. apply (arr_loop_stable codec rec Hr Hs _ _ _ _ _ _ _ o (proj2 Hst) E D Ha). lia.
Qed.

Ltac by_head h :=
  destruct (N.eqb_spec h 43) as [->|_]; [|
  destruct (N.eqb_spec h 45) as [->|_]; [|
  destruct (N.eqb_spec h 58) as [->|_]; [|
  destruct (N.eqb_spec h 36) as [->|_]; [|
  destruct (N.eqb_spec h 42) as [->|_]]]]].

Lemma parse_d_eq codec d b :
  parse_d codec d b =
  match b with
  | [] => (Incomplete, 0%N)
  | c :: _ =>
    if (c =? 43)%N then parse_line RSimple b
    else if (c =? 45)%N then parse_line RError b
    else if (c =? 58)%N then parse_integer b
    else if (c =? 36)%N then parse_bulk b
    else if (c =? 42)%N then
      match d with
      | O => (Err ETooDeep, 0%N)
      | S d' => parse_array codec (parse_d codec d') b
      end
    else (Err EUnknownType, 0%N)
  end.
Proof. destruct d; reflexivity. Qed.

Lemma parse_d_nil codec d : fst (parse_d codec d []) = Incomplete.
Proof. now rewrite parse_d_eq. Qed.

Lemma parse_d_bulk codec d t : parse_d codec d (36%N :: t) = parse_bulk (36%N :: t).
Proof. now rewrite parse_d_eq. Qed.

Lemma parse_d_sound codec : forall d, SoundDec (parse_d codec d).
Proof.
  induction d as [|d IH]; intros s; (destruct s as [|h t]; [apply sound_incomplete|]);
    cbn [parse_d];
    (by_head h;
     [apply parse_line_sound; discriminate|apply parse_line_sound; discriminate
     |apply parse_integer_sound; discriminate|apply parse_bulk_sound; discriminate
     | |apply sound_err]).
  - (* an array with no level left *) apply sound_err.
  - (* an array one level down *) apply parse_array_sound; [exact IH|discriminate].
Qed.

Lemma parse_d_bnd codec : forall d, Bnd (parse_d codec d).
Proof. intros d. apply SoundDec_Bnd, parse_d_sound. Qed.

Lemma parse_d_stable codec : forall d, Stable (parse_d codec d).
Proof.
  induction d as [|d IH]; intros s s' o H D Ha.
  all: destruct s as [|h t]; [subst o; destruct D|].
  (* both inputs begin with the same type byte *)
  all: assert (Hn : 1 <= span o (h :: t))
    by (destruct o; cbn [span length]; try lia; eapply parse_d_bnd, H).
  all: destruct (agree_head _ _ _ _ Hn Ha) as [t' ->]; revert H; cbn [parse_d];
    (by_head h; intros H;
     [exact (parse_line_stable _ _ _ _ H D Ha)|exact (parse_line_stable _ _ _ _ H D Ha)
     |exact (parse_integer_stable _ _ _ H D Ha)|exact (parse_bulk_stable _ _ _ H D Ha)
     | |exact H]).
  - (* an array with no level left *) exact H.
  - (* an array one level down *) exact (parse_array_stable codec _ (parse_d_sound codec d) IH _ _ _ H D Ha).
Qed.

Lemma parse_d_ext codec d : Ext (parse_d codec d).
Proof. apply Stable_Ext; [apply parse_d_bnd|apply parse_d_stable]. Qed.

Lemma parse_d_exact codec d : Exact (parse_d codec d).
Proof. apply Stable_Exact; [apply parse_d_bnd|apply parse_d_stable]. Qed.

Lemma show_N_aux_app f : forall n acc, show_N_aux f n acc = show_N_aux f n [] ++ acc.
Proof.
  induction f as [|f IH]; intros n acc; [reflexivity|].
  cbn [show_N_aux]. destruct (n <? 10)%N; [reflexivity|].
  rewrite IH. rewrite (IH _ [_]). rewrite <- app_assoc. reflexivity.
Qed.

Lemma digits_val_app l1 : forall l2 a,
  digits_val (l1 ++ l2) a = match digits_val l1 a with Some m => digits_val l2 m | None => None end.
Proof.
  induction l1 as [|c l1 IH]; intros l2 a; [reflexivity|].
  cbn [app digits_val]. destruct (is_digit c); [apply IH|reflexivity].
Qed.

Lemma is_digit_low n : (n < 10)%N -> is_digit (48 + n) = true.
Proof.
  intros H. unfold is_digit. apply andb_true_intro. split; [apply N.leb_le|apply N.leb_le]; lia.
Qed.

Lemma show_N_aux_val : forall f n, (n < 2 ^ N.of_nat f)%N -> digits_val (show_N_aux f n []) 0 = Some n.
Proof.
  induction f as [|f IH]; intros n H.
  - cbn in H. assert (n = 0%N) by lia. subst. reflexivity.
  - cbn [show_N_aux]. pose proof (N.mod_lt n 10 ltac:(lia)) as Hm.
    pose proof (N.div_mod n 10 ltac:(lia)) as Hd.
    destruct (n <? 10)%N eqn:E.
    + apply N.ltb_lt in E. rewrite N.mod_small by assumption.
      cbn [digits_val]. rewrite is_digit_low by assumption. f_equal. lia.
    + apply N.ltb_ge in E. rewrite show_N_aux_app, digits_val_app.
      rewrite IH.
      * cbn [digits_val]. rewrite is_digit_low by assumption. f_equal.
        replace (48 + n mod 10 - 48)%N with (n mod 10)%N by (generalize (n mod 10)%N; intros; lia).
        symmetry. exact Hd.
      * rewrite Nat2N.inj_succ, N.pow_succ_r' in H.
        apply N.div_lt_upper_bound; [lia|]. clear Hd Hm. remember (2 ^ N.of_nat f)%N as p. lia.
Qed.

Lemma show_N_aux_digits : forall f n acc,
  Forall (fun c => is_digit c = true) acc -> Forall (fun c => is_digit c = true) (show_N_aux f n acc).
Proof.
  induction f as [|f IH]; intros n acc H; [exact H|].
  cbn [show_N_aux]. pose proof (N.mod_lt n 10 ltac:(lia)) as Hm.
  assert (Forall (fun c => is_digit c = true) ((48 + n mod 10)%N :: acc))
    by (constructor; [now apply is_digit_low|exact H]).
  destruct (n <? 10)%N; [assumption|]. now apply IH.
Qed.

Lemma show_N_val n : digits_val (show_N n) 0 = Some n.
Proof.
  unfold show_N. apply show_N_aux_val.
  rewrite Nat2N.inj_succ, N2Nat.id.
  destruct n as [|p]; [reflexivity|].
  apply N.log2_spec. reflexivity.
Qed.

Lemma show_N_digits n : Forall (fun c => is_digit c = true) (show_N n).
Proof. apply show_N_aux_digits. constructor. Qed.

Lemma show_N_cons n : exists c t, show_N n = c :: t /\ is_digit c = true.
Proof.
  pose proof (show_N_digits n) as H.
  destruct (show_N n) as [|c t] eqn:E.
  - exfalso. unfold show_N in E. cbn [show_N_aux] in E.
    destruct (n <? 10)%N; [discriminate|].
    rewrite show_N_aux_app in E. destruct (show_N_aux _ _ []); discriminate.
  - exists c, t. split; [reflexivity|]. now inversion H.
Qed.

Lemma is_digit_range c : is_digit c = true -> (48 <= c <= 57)%N.
Proof. unfold is_digit. intros H. apply andb_prop in H. destruct H as [H1 H2]. apply N.leb_le in H1, H2. lia. Qed.

Lemma parse_i64_show_N n : (n < I64_LIM)%N -> parse_i64 (show_N n) = Some (Z.of_N n).
Proof.
  intros H. destruct (show_N_cons n) as (c & t & E & Hc).
  pose proof (show_N_val n) as Hv. rewrite E in *. apply is_digit_range in Hc.
  unfold parse_i64.
  replace (c =? 45)%N with false by (symmetry; apply N.eqb_neq; lia).
  replace (c =? 43)%N with false by (symmetry; apply N.eqb_neq; lia).
  cbn [orb]. rewrite Hv. apply N.ltb_lt in H. now rewrite H.
Qed.

Lemma parse_i64_show_Z z : (- Z.of_N I64_LIM <= z < Z.of_N I64_LIM)%Z -> parse_i64 (show_Z z) = Some z.
Proof.
  intros H. unfold show_Z. destruct (z <? 0)%Z eqn:E.
  - apply Z.ltb_lt in E. destruct (show_N_cons (Z.to_N (- z))) as (c & t & Ec & Hc).
    pose proof (show_N_val (Z.to_N (- z))) as Hv. rewrite Ec in *.
    unfold parse_i64. cbn [N.eqb Pos.eqb orb]. rewrite Hv.
    replace (Z.to_N (- z) <=? I64_LIM)%N with true by (symmetry; apply N.leb_le; lia).
    f_equal. lia.
  - apply Z.ltb_ge in E. rewrite parse_i64_show_N by lia. f_equal. lia.
Qed.

Lemma show_N_no_cr n : Forall (fun c => c <> 13%N) (show_N n).
Proof.
  eapply Forall_impl; [|apply show_N_digits].
  intros c Hc. apply is_digit_range in Hc. lia.
Qed.

Lemma show_Z_no_cr z : Forall (fun c => c <> 13%N) (show_Z z).
Proof.
  unfold show_Z. destruct (z <? 0)%Z; [constructor; [discriminate|]|]; apply show_N_no_cr.
Qed.

Lemma resp_ind2 (P : resp -> Prop) :
  (forall s, P (RSimple s)) -> (forall s, P (RError s)) -> (forall z, P (RInt z)) ->
  P RNilBulk -> (forall s, P (RBulk s)) -> P RNilArr ->
  (forall l, Forall P l -> P (RArr l)) -> forall v, P v.
Proof.
  intros H1 H2 H3 H4 H5 H6 H7. fix IH 1.
  intros [s|s|z| |s| |l]; [apply H1|apply H2|apply H3|apply H4|apply H5|apply H6|].
  apply H7. induction l as [|a l IHl]; constructor; [apply IH|exact IHl].
Qed.

Lemma encode_nonempty v : 1 <= length (encode v).
Proof. destruct v; cbn [encode length]; lia. Qed.

Lemma length_flat_map_encode l : length l <= length (flat_map encode l).
Proof.
  induction l as [|v l IH]; [cbn; lia|].
  cbn [flat_map length]. rewrite app_length. pose proof (encode_nonempty v). lia.
Qed.

Lemma line_ok_no_cr s : line_ok s = true -> Forall (fun c => c <> 13%N) s.
Proof.
  unfold line_ok. rewrite forallb_forall, Forall_forall. intros H c Hc.
  specialize (H c Hc). apply andb_prop in H. destruct H as [H _].
  apply negb_true_iff in H. now apply N.eqb_neq.
Qed.

Lemma with_line_header t s rest k : t <> 13%N -> Forall (fun c => c <> 13%N) s ->
  with_line (t :: s ++ 13%N :: 10%N :: rest) k = k (S (length s)) s.
Proof.
  intros Ht Hs. unfold with_line.
  change (t :: s ++ 13%N :: 10%N :: rest) with ((t :: s) ++ 13%N :: 10%N :: rest).
  rewrite find_crlf_line by now constructor.
  rewrite slice_ok; [|cbn [length]; lia|rewrite app_length; cbn [length]; lia].
  cbn [length skipn app]. replace (S (length s) - 1) with (length s) by lia.
  rewrite firstn_app_le by lia. now rewrite firstn_all.
Qed.

Lemma with_len_line nil t ds n rest k : t <> 13%N -> Forall (fun c => c <> 13%N) ds ->
  parse_i64 ds = Some (Z.of_N n) ->
  with_len nil (t :: ds ++ 13%N :: 10%N :: rest) k = k (S (length ds) + 2) (Z.of_N n).
Proof.
  intros Ht Hds Hi. unfold with_len. rewrite with_line_header, Hi by assumption.
  replace (Z.of_N n =? -1)%Z with false by (symmetry; apply Z.eqb_neq; lia).
  replace (Z.of_N n <? 0)%Z with false by (symmetry; apply Z.ltb_ge; lia).
  reflexivity.
Qed.

Lemma with_len_header nil t n rest k : t <> 13%N -> (n < I64_LIM)%N ->
  with_len nil (t :: show_N n ++ 13%N :: 10%N :: rest) k = k (S (length (show_N n)) + 2) (Z.of_N n).
Proof. intros Ht Hn. apply with_len_line; auto using show_N_no_cr, parse_i64_show_N. Qed.

Lemma length_header (t : N) hs rest :
  length (t :: hs ++ 13%N :: 10%N :: rest) = S (length hs) + 2 + length rest.
Proof. cbn [length]. rewrite app_length. cbn [length]. lia. Qed.

Lemma skipn_header (t : N) hs rest :
  skipn (S (length hs) + 2) (t :: hs ++ 13%N :: 10%N :: rest) = rest.
Proof.
  change (S (length hs) + 2) with (S (length hs + 2)). cbn [skipn].
  rewrite skipn_app, skipn_all2 by lia.
  now replace (length hs + 2 - length hs) with 2 by lia.
Qed.

Lemma bulk_body_frame b start s x : skipn start b = s ++ 13%N :: 10%N :: x -> size_ok b ->
  fst (bulk_body b start (Z.of_nat (length s))) = Done (RBulk s) (start + length s + 2).
Proof.
  intros Hsk Hs. pose proof (f_equal (@length N) Hsk) as Hl.
  rewrite skipn_length, app_length in Hl. cbn [length] in Hl.
  assert (Hu : (Z.of_nat start + Z.of_nat (length s) + 2 < USIZE_LIM)%Z).
  { apply (size_ok_usize b); [exact Hs|lia|]. pose proof (size_ok_i64 b (length s) Hs). lia. }
  unfold bulk_body. cbv zeta.
  replace (_ <=? Z.of_nat start + Z.of_nat (length s))%Z with false
    by (symmetry; apply Z.leb_gt; lia).
  replace (_ <=? Z.of_nat start + Z.of_nat (length s) + 2)%Z with false
    by (symmetry; apply Z.leb_gt; lia).
  replace (_ <? Z.of_nat start + Z.of_nat (length s) + 2)%Z with false
    by (symmetry; apply Z.ltb_ge; lia).
  rewrite Nat2Z.id, slice_ok, Hsk by lia.
  replace (start + length s - start) with (length s) by lia.
  now rewrite firstn_app_le, firstn_all by lia.
Qed.

Lemma arr_loop_encode codec rec x :
  forall l,
    Forall (fun v => forall y, size_ok (encode v ++ y) ->
                               fst (rec (encode v ++ y)) = Done v (length (encode v))) l ->
    forall off acc lf input,
      skipn off input = flat_map encode l ++ x ->
      size_ok input -> length input < off + lf ->
      fst (arr_loop codec rec lf input (N.of_nat (length l)) off acc)
      = Done (RArr (rev acc ++ l)) (off + length (flat_map encode l)).
Proof.
  induction 1 as [|v l Hv Hl IH]; intros off acc lf input Hsk Hs Hlf.
  - rewrite arr_loop_zero by reflexivity. cbn. now rewrite app_nil_r, Nat.add_0_r.
  - cbn [flat_map] in *. rewrite <- app_assoc in Hsk.
    pose proof (f_equal (@length N) Hsk) as Hlen. rewrite skipn_length, app_length in Hlen.
    pose proof (encode_nonempty v) as Hne.
    destruct lf as [|lf]; [lia|].
    rewrite arr_loop_next with (v := v) (c := length (encode v)).
    + replace (N.of_nat (length (v :: l)) - 1)%N with (N.of_nat (length l)) by (cbn [length]; lia).
      rewrite (IH (off + length (encode v)) (v :: acc) lf input).
      * cbn [rev]. rewrite <- app_assoc, app_length. cbn [app]. f_equal. lia.
      * now rewrite <- skipn_plus, Hsk, skipn_app_exact.
      * exact Hs.
      * lia.
    + apply N.eqb_neq. cbn [length]. lia.
    + apply guard_lt. lia.
    + lia.
    + rewrite Hsk. apply Hv. rewrite <- Hsk. now apply size_ok_skipn.
Qed.

Lemma encode_decode_d codec : forall v d x,
  wf_resp d v = true -> size_ok (encode v ++ x) ->
  fst (parse_d codec d (encode v ++ x)) = Done v (length (encode v)).
Proof.
  induction v as [s|s|z| |s| |l IHl] using resp_ind2; intros d x Hwf Hs.
  1,2: cbn [encode app]; unfold CRLF; rewrite <- app_assoc; cbn [app];
    rewrite parse_d_eq; cbn [N.eqb Pos.eqb];
    rewrite parse_line_eq, with_line_header by (discriminate || exact (line_ok_no_cr _ Hwf)); cbn [line_k fst];
    f_equal; cbn [length]; rewrite app_length; cbn [length]; lia.
  - replace (encode (RInt z) ++ x) with (58%N :: show_Z z ++ 13%N :: 10%N :: x)
      by (cbn [encode CRLF app]; now rewrite <- app_assoc).
    rewrite parse_d_eq. cbn [N.eqb Pos.eqb].
    rewrite parse_integer_eq, with_line_header by (discriminate || apply show_Z_no_cr).
    unfold integer_k.
    cbn [wf_resp] in Hwf. apply andb_prop in Hwf. destruct Hwf as [H1 H2].
    apply Z.leb_le in H1. apply Z.ltb_lt in H2.
    rewrite parse_i64_show_Z by lia. cbn [fst].
    f_equal. cbn [encode length]. rewrite app_length. cbn. lia.
  - change (encode RNilBulk ++ x) with (36%N :: [45%N; 49%N] ++ 13%N :: 10%N :: x).
    rewrite parse_d_eq. cbn [N.eqb Pos.eqb].
    rewrite parse_bulk_eq. unfold with_len.
    rewrite with_line_header by (discriminate || (repeat constructor; discriminate)).
    reflexivity.
  - set (hs := show_N (N.of_nat (length s))).
    assert (Hin : encode (RBulk s) ++ x = 36%N :: hs ++ 13%N :: 10%N :: s ++ 13%N :: 10%N :: x).
    { cbn [encode app]. fold hs. unfold CRLF. rewrite <- app_assoc. cbn [app].
      now rewrite <- app_assoc. }
    pose proof (f_equal (@length N) Hin) as Hel.
    rewrite app_length, length_header, app_length in Hel. cbn [length] in Hel.
    replace (length (encode (RBulk s))) with (S (length hs) + 2 + length s + 2) by lia.
    rewrite Hin in *. rewrite parse_d_eq. cbn [N.eqb Pos.eqb]. rewrite parse_bulk_eq.
    unfold hs at 1. rewrite with_len_header.
    + fold hs. rewrite nat_N_Z. apply bulk_body_frame with (x := x); [apply skipn_header|exact Hs].
    + discriminate.
    + apply (size_ok_i64 _ _ Hs). rewrite length_header, app_length. lia.
  - destruct d as [|d]; [discriminate|].
    change (encode RNilArr ++ x) with (42%N :: [45%N; 49%N] ++ 13%N :: 10%N :: x).
    rewrite parse_d_eq. cbn [N.eqb Pos.eqb].
    rewrite parse_array_eq. unfold with_len.
    rewrite with_line_header by (discriminate || (repeat constructor; discriminate)).
    reflexivity.
  - destruct d as [|d]; [discriminate|]. cbn [wf_resp] in Hwf.
    set (hs := show_N (N.of_nat (length l))).
    assert (Hin : encode (RArr l) ++ x = 42%N :: hs ++ 13%N :: 10%N :: flat_map encode l ++ x).
    { cbn [encode app]. fold hs. unfold CRLF. now rewrite <- app_assoc. }
    pose proof (f_equal (@length N) Hin) as Hel.
    rewrite app_length, length_header, app_length in Hel.
    replace (length (encode (RArr l))) with (S (length hs) + 2 + length (flat_map encode l)) by lia.
    pose proof (length_flat_map_encode l) as Hfl.
    rewrite Hin in *. rewrite parse_d_eq. cbn [N.eqb Pos.eqb]. rewrite parse_array_eq.
    unfold hs at 1. rewrite with_len_header.
    + fold hs. unfold array_body.
      replace (length _ <? S (length hs) + 2) with false
        by (symmetry; apply Nat.ltb_ge; rewrite length_header; lia).
      rewrite fst_tick, N2Z.id.
      apply arr_loop_encode with (x := x); [|apply skipn_header|exact Hs|lia].
      rewrite Forall_forall in *. rewrite forallb_forall in Hwf.
      intros v Hv y Hy. apply IHl; auto.
    + discriminate.
    + apply (size_ok_i64 _ _ Hs). rewrite length_header, app_length. lia.
Qed.

Theorem parse_no_panic codec b : size_ok b -> parse codec b <> Panic.
Proof. apply sound_no_panic with (1 := parse_d_sound codec MAX_DEPTH b). Qed.

Theorem parse_no_oof codec b : parse codec b <> OutOfFuel.
Proof. exact (sound_no_oof (parse_d_sound codec MAX_DEPTH b) I). Qed.

Theorem parse_consumed_exact codec b v n : parse codec b = Done v n ->
  1 <= n <= length b /\ parse codec (firstn n b) = Done v n.
Proof.
  intros H. split; [eapply parse_d_bnd; exact H|]. apply parse_d_exact. exact H.
Qed.

Theorem parse_extension codec b x v n : parse codec b = Done v n -> parse codec (b ++ x) = Done v n.
Proof. intros H. apply parse_d_ext; [exact H|exact I]. Qed.

Theorem parse_error_stable codec b x k : parse codec b = Err k -> parse codec (b ++ x) = Err k.
Proof. intros H. apply parse_d_ext; [exact H|exact I]. Qed.

Theorem parse_prefix_incomplete codec b v n k : size_ok b ->
  parse codec b = Done v n -> k < n -> parse codec (firstn k b) = Incomplete.
Proof.
  intros Hs H Hk.
  assert (Hb : b = firstn k b ++ skipn k b) by (symmetry; apply firstn_skipn).
  assert (Hsp : size_ok (firstn k b)) by (unfold size_ok in *; rewrite firstn_length; lia).
  destruct (parse codec (firstn k b)) as [v' n'| |e| |] eqn:E; try reflexivity.
  - exfalso. pose proof (parse_extension codec _ (skipn k b) _ _ E) as H2.
    rewrite <- Hb in H2. rewrite H in H2. inversion H2; subst.
    apply parse_consumed_exact in E. rewrite firstn_length in E. lia.
  - exfalso. pose proof (parse_error_stable codec _ (skipn k b) _ E) as H2.
    rewrite <- Hb in H2. rewrite H in H2. discriminate.
  - exfalso. exact (parse_no_panic codec _ Hsp E).
  - exfalso. exact (parse_no_oof codec _ E).
Qed.

Theorem parse_alloc_bounded codec b :
  (alloc_request codec b <= ELEM_SIZE * N.of_nat (length b))%N.
Proof. exact (sound_alloc (parse_d_sound codec MAX_DEPTH b)). Qed.

Theorem encode_decode codec v : wf_resp MAX_DEPTH v = true -> size_ok (encode v) ->
  parse codec (encode v) = Done v (length (encode v)).
Proof.
  intros Hw Hs. unfold parse, run.
  rewrite <- (app_nil_r (encode v)) at 1. apply encode_decode_d; [exact Hw|].
  now rewrite app_nil_r.
Qed.

Theorem encode_decode_app codec v x : wf_resp MAX_DEPTH v = true -> size_ok (encode v ++ x) ->
  parse codec (encode v ++ x) = Done v (length (encode v)).
Proof. intros Hw Hs. apply encode_decode_d; assumption. Qed.

Theorem parse_total codec b : size_ok b ->
  (exists v n, parse codec b = Done v n) \/ parse codec b = Incomplete \/ (exists k, parse codec b = Err k).
Proof.
  intros Hs. pose proof (parse_no_panic codec b Hs) as H1. pose proof (parse_no_oof codec b) as H2.
  destruct (parse codec b) as [v n| |k| |]; eauto; contradiction.
Qed.

Lemma arr_loop_agree rec1 rec2 (Hb : Bnd rec1) (Ha : forall s, fst (rec1 s) = fst (rec2 s))
      (Hnil : fst (rec2 []) = Incomplete) :
  forall lf input cnt off acc, off <= length input ->
    fst (arr_loop true rec1 lf input cnt off acc) = fst (arr_loop false rec2 lf input cnt off acc).
Proof.
  induction lf as [|lf IH]; intros input cnt off acc Ho;
    (destruct (cnt =? 0)%N eqn:Ec; [now rewrite !arr_loop_zero|]).
  - now rewrite !arr_loop_no_fuel.
  - destruct (length input <=? off) eqn:E.
    + (* RespCodec stops at the end of the input, RespParser asks its element decoder *)
      apply Nat.leb_le in E. assert (off = length input) by lia. subst off.
      rewrite arr_loop_S by assumption. rewrite Nat.leb_refl. cbn [andb fst]. symmetry.
      apply arr_loop_stop; auto. now rewrite skipn_all.
    + assert (G : true && (length input <=? off) = false) by exact E.
      destruct (fst (rec1 (skipn off input))) as [v c| | | |] eqn:E1;
        [|rewrite (arr_loop_stop Ec G Ho _ E1 I); symmetry;
          apply arr_loop_stop; auto; now rewrite <- Ha ..].
      rewrite (arr_loop_next Ec G Ho v c E1), (arr_loop_next (codec := false) Ec eq_refl Ho v c)
        by now rewrite <- Ha.
      apply Hb in E1. rewrite skipn_length in E1. apply IH. lia.
Qed.

Lemma with_len_agree nil b k k' :
  (forall start len, 2 <= start <= length b -> fst (k start len) = fst (k' start len)) ->
  fst (with_len nil b k) = fst (with_len nil b k').
Proof.
  intros Hk. unfold with_len, with_line.
  destruct (find_crlf b) as [pos|] eqn:Hf; [|reflexivity]. apply find_crlf_bound in Hf.
  destruct (slice b 1 pos) as [s|]; [|reflexivity].
  destruct (parse_i64 s) as [len|]; [|reflexivity].
  destruct (len =? -1)%Z; [reflexivity|].
  destruct (len <? 0)%Z; [reflexivity|]. apply Hk. lia.
Qed.

Lemma parse_d_agree : forall d b, fst (parse_d true d b) = fst (parse_d false d b).
Proof.
  induction d as [|d IH]; intros b; (destruct b as [|h t]; [reflexivity|]);
    cbn [parse_d]; (by_head h; [reflexivity..| |reflexivity]).
  - (* an array with no level left *) reflexivity.
  - (* an array one level down *)
    rewrite !parse_array_eq. apply with_len_agree. intros start len Hst. unfold array_body.
    destruct (length _ <? start); [reflexivity|]. rewrite !fst_tick.
    apply arr_loop_agree; auto using parse_d_bnd, parse_d_nil. lia.
Qed.

Theorem decoders_agree b : parse true b = parse false b.
Proof. apply parse_d_agree. Qed.

Lemma decode_all_fuel codec : forall f1 f2 buf, length buf < f1 -> length buf < f2 ->
  decode_all codec f1 buf = decode_all codec f2 buf.
Proof.
  induction f1 as [|f1 IH]; intros f2 buf H1 H2; [lia|].
  destruct f2 as [|f2]; [lia|]. cbn [decode_all].
  destruct (parse codec buf) as [v n| |e| |] eqn:E; try reflexivity.
  apply parse_consumed_exact in E. destruct E as [E _].
  rewrite (IH f2 (skipn n buf)); [reflexivity| |]; rewrite skipn_length; lia.
Qed.

Lemma decode_all_rest codec : forall f buf rest,
  snd (decode_all codec f buf) = TMore rest -> length rest <= length buf.
Proof.
  induction f as [|f IH]; intros buf rest; [discriminate|]. cbn [decode_all].
  destruct (parse codec buf) as [v n| |e| |] eqn:E; cbn [snd]; try discriminate.
  - intros H. apply IH in H. rewrite skipn_length in H. lia.
  - intros H; inversion H. lia.
Qed.

(* the stream decoder without its fuel *)
Lemma decode_stream_eq codec buf :
  decode_stream codec buf =
  match parse codec buf with
  | Done v n => let r := decode_stream codec (skipn n buf) in (v :: fst r, snd r)
  | Incomplete => ([], TMore buf)
  | Err k => ([], TErr k)
  | Panic => ([], TPanic)
  | OutOfFuel => ([], TOutOfFuel)
  end.
Proof.
  unfold decode_stream. cbn [decode_all].
  destruct (parse codec buf) as [v n| |e| |] eqn:E; try reflexivity.
  apply parse_consumed_exact in E. destruct E as [E _].
  now rewrite (decode_all_fuel codec (length buf) (S (length (skipn n buf))))
    by (rewrite skipn_length; lia).
Qed.

Lemma feed_decode codec buf x : size_ok (buf ++ x) ->
  feed codec (decode_stream codec buf) x = decode_stream codec (buf ++ x).
Proof.
  remember (length buf) as n eqn:Hn. revert buf Hn.
  induction n as [n IH] using lt_wf_ind. intros buf -> Hs.
  rewrite (decode_stream_eq codec buf).
  destruct (parse codec buf) as [v c| |e| |] eqn:E.
  - rewrite (decode_stream_eq codec (buf ++ x)), (parse_extension codec _ x _ _ E).
    apply parse_consumed_exact in E. destruct E as [Hc _].
    rewrite skipn_app_le by lia. cbv zeta.
    rewrite <- (IH (length (skipn c buf))); [|rewrite skipn_length; lia|reflexivity|].
    + unfold feed. cbn [fst snd].
      destruct (snd (decode_stream codec (skipn c buf))) eqn:Er; cbn [fst snd]; now rewrite ?Er.
    + rewrite <- skipn_app_le by lia. now apply size_ok_skipn.
  - unfold feed. cbn [fst snd app]. now destruct (decode_stream codec (buf ++ x)).
  - now rewrite (decode_stream_eq codec (buf ++ x)), (parse_error_stable codec _ x _ E).
  - destruct (parse_no_panic codec buf (size_ok_app_l _ _ Hs) E).
  - destruct (parse_no_oof codec buf E).
Qed.

Lemma fold_feed codec : forall frags buf, size_ok (buf ++ concat frags) ->
  fold_left (feed codec) frags (decode_stream codec buf) = decode_stream codec (buf ++ concat frags).
Proof.
  induction frags as [|f frags IH]; intros buf Hs; cbn [fold_left concat].
  - now rewrite app_nil_r.
  - cbn [concat] in Hs. rewrite app_assoc in Hs.
    rewrite feed_decode by (eapply size_ok_app_l; eauto).
    rewrite IH by exact Hs. now rewrite <- app_assoc.
Qed.

Theorem fragmentation_independent codec frags : size_ok (concat frags) ->
  feed_all codec frags = decode_stream codec (concat frags).
Proof.
  intros Hs. unfold feed_all.
  change ([], TMore []) with (decode_stream codec []).
  now rewrite fold_feed.
Qed.

(* evaluation does not get stuck on the free [inner]: each of the 33 levels inspects only its
   own four bytes and takes one turn of the loop, for which those bytes are fuel enough *)
Theorem nesting_bounded codec inner :
  parse codec (Nat.iter (S MAX_DEPTH) (fun b => 42 :: 49 :: 13 :: 10 :: b)%N inner) = Err ETooDeep.
Proof. destruct codec; vm_compute; reflexivity. Qed.

(* k CR LF pairs: completes a pending line, fills a pending bulk body, and then offers
   CR or LF where the next type byte is expected *)
Fixpoint pad (k : nat) : bytes :=
  match k with O => [] | S k' => 13%N :: 10%N :: pad k' end.

Lemma pad_length k : length (pad k) = 2 * k.
Proof. induction k; cbn [pad length]; lia. Qed.

Lemma pad_add a b : pad (a + b) = pad a ++ pad b.
Proof. induction a; cbn [pad Nat.add app]; [reflexivity|now rewrite IHa]. Qed.

Lemma pad_skipn : forall k j, j < 2 * k ->
  exists t, skipn j (pad k) = 13%N :: t \/ skipn j (pad k) = 10%N :: t.
Proof.
  induction k as [|k IH]; intros j Hj; [lia|].
  destruct j as [|[|j]]; cbn [pad skipn]; eauto.
  apply IH. lia.
Qed.

Lemma find_crlf_pad b : exists p, find_crlf (b ++ pad 1) = Some p.
Proof.
  induction b as [|x t IH]; [exists 0; reflexivity|].
  cbn [app]. destruct IH as [q Hq].
  destruct (t ++ pad 1) as [|y r] eqn:E; [destruct t; discriminate|].
  rewrite find_crlf_cons2. destruct ((x =? 13)%N && (y =? 10)%N); eauto.
  rewrite Hq. eauto.
Qed.

Definition Compl (rec : bytes -> outcome * N) :=
  forall s, fst (rec s) = Incomplete -> exists k, fst (rec (s ++ pad k)) <> Incomplete.

(* a decoder that needs a header line first: complete the line, then the body *)
Lemma two_stage (f : bytes -> outcome * N) :
  (forall s pos, find_crlf s = Some pos -> fst (f s) = Incomplete ->
                 exists k, fst (f (s ++ pad k)) <> Incomplete) ->
  Compl f.
Proof.
  intros HB s H. destruct (find_crlf s) as [pos|] eqn:Hf; [eauto|].
  destruct (find_crlf_pad s) as [p Hp].
  destruct (fst (f (s ++ pad 1))) eqn:E;
    try (exists 1; rewrite E; discriminate).
  destruct (HB _ _ Hp E) as [k Hk]. exists (1 + k).
  now rewrite pad_add, app_assoc.
Qed.

Lemma with_line_compl (K : bytes -> nat -> bytes -> outcome * N) :
  (forall b pos s, pos + 2 <= length b -> fst (K b pos s) = Incomplete ->
                   exists j, fst (K (b ++ pad j) pos s) <> Incomplete) ->
  Compl (fun b => with_line b (K b)).
Proof.
  intros HK. apply two_stage. intros b pos Hf. unfold with_line. rewrite Hf.
  destruct (slice b 1 pos) as [s|] eqn:Hs; [|discriminate]. intros E.
  destruct (HK b pos s (find_crlf_bound _ _ Hf) E) as [j Hj]. exists j.
  now rewrite (find_crlf_app _ _ _ Hf), (slice_app _ _ _ _ _ Hs).
Qed.

Lemma with_len_compl nil (K : bytes -> nat -> Z -> outcome * N) :
  (forall b start len, 2 <= start <= length b -> (0 <= len)%Z -> fst (K b start len) = Incomplete ->
                       exists j, fst (K (b ++ pad j) start len) <> Incomplete) ->
  Compl (fun b => with_len nil b (K b)).
Proof.
  intros HK. unfold with_len. apply with_line_compl. intros b pos s Hp.
  destruct (parse_i64 s) as [len|]; [|discriminate].
  destruct (len =? -1)%Z; [discriminate|].
  destruct (len <? 0)%Z eqn:E; [discriminate|]. apply Z.ltb_ge in E. apply HK; lia.
Qed.

Lemma parse_line_compl mk : Compl (parse_line mk).
Proof. apply (with_line_compl (fun _ => line_k mk)). discriminate. Qed.

Lemma parse_integer_compl : Compl parse_integer.
Proof.
  apply (with_line_compl (fun _ => integer_k)). unfold integer_k.
  intros _ pos s _. destruct (parse_i64 s); discriminate.
Qed.

Lemma parse_bulk_compl : Compl parse_bulk.
Proof.
  apply (with_len_compl RNilBulk bulk_body). intros b start len Hst Hlen.
  unfold bulk_body. cbv zeta.
  destruct (USIZE_LIM <=? Z.of_nat start + len)%Z; [discriminate|].
  destruct (USIZE_LIM <=? Z.of_nat start + len + 2)%Z; [discriminate|].
  destruct (Z.of_nat (length b) <? _)%Z.
  2:{ destruct (slice b start _); discriminate. }
  intros _. exists (Z.to_nat (Z.of_nat start + len + 2)).
  replace (Z.of_nat (length (b ++ pad _)) <? _)%Z with false
    by (symmetry; apply Z.ltb_ge; rewrite app_length, pad_length; lia).
  destruct (slice (b ++ pad _) start _); discriminate.
Qed.

(* the element decoder rejects CR and LF as type bytes, so the loop stops at the padding *)
Lemma arr_loop_crlf codec rec
      (Hcr : forall h t, h = 13%N \/ h = 10%N -> fst (rec (h :: t)) = Err EUnknownType)
      lf input k cnt off acc :
  (cnt =? 0)%N = false -> length input <= off < length input + 2 * k ->
  fst (arr_loop codec rec (S lf) (input ++ pad k) cnt off acc) = Err EUnknownType.
Proof.
  intros Ec Ho.
  assert (Hsk : exists h t, skipn off (input ++ pad k) = h :: t /\ (h = 13%N \/ h = 10%N)).
  { rewrite skipn_app, skipn_all2 by lia.
    destruct (pad_skipn k (off - length input) ltac:(lia)) as [t [Ht|Ht]]; rewrite Ht;
      [exists 13%N, t|exists 10%N, t]; auto. }
  destruct Hsk as (h & t & Hsk & Hh).
  apply arr_loop_stop; [exact Ec| | |rewrite Hsk; now apply Hcr|exact I].
  - apply guard_lt. rewrite app_length, pad_length. lia.
  - rewrite app_length, pad_length. lia.
Qed.

Lemma arr_loop_compl codec rec (Hb : Bnd rec) (He : Ext rec) (Hx : Exact rec) (Hc : Compl rec)
      (Hcr : forall h t, h = 13%N \/ h = 10%N -> fst (rec (h :: t)) = Err EUnknownType) :
  forall lf input cnt off acc, off <= length input ->
    fst (arr_loop codec rec lf input cnt off acc) = Incomplete ->
    exists k, forall lf', length (input ++ pad k) < off + lf' ->
      fst (arr_loop codec rec lf' (input ++ pad k) cnt off acc) <> Incomplete.
Proof.
  induction lf as [|lf IH]; intros input cnt off acc Ho H;
    destruct (cnt =? 0)%N eqn:Ec;
    try (rewrite arr_loop_zero in H by assumption; discriminate);
    try (rewrite arr_loop_no_fuel in H by assumption; discriminate).
  destruct (codec && (length input <=? off)) eqn:G.
  { (* RespCodec: the offset is at the end of the input *)
    apply andb_prop in G. destruct G as [_ G]. apply Nat.leb_le in G.
    exists 1. intros [|lf'] Hl; rewrite app_length, pad_length in Hl; [lia|].
    rewrite (arr_loop_crlf _ _ Hcr) by (assumption || lia). discriminate. }
  assert (G' : forall y, codec && (length (input ++ y) <=? off) = false)
    by (intros y; apply (guard_le codec input); [rewrite app_length; lia|exact G]).
  assert (Ho' : forall y, off <= length (input ++ y)) by (intros y; rewrite app_length; lia).
  destruct (fst (rec (skipn off input))) as [v c| | | |] eqn:Er;
    try (rewrite (arr_loop_stop Ec G Ho _ Er I) in H; discriminate).
  - (* the element at [off] is complete; a later one is pending *)
    rewrite (arr_loop_next Ec G Ho v c Er) in H.
    pose proof (Hb _ _ _ Er) as Hcn. rewrite skipn_length in Hcn.
    destruct (IH input (cnt - 1)%N (off + c) (v :: acc) ltac:(lia) H) as [k Hk].
    exists k. intros [|lf'] Hl; [rewrite app_length in Hl; lia|].
    rewrite (arr_loop_next Ec (G' _) (Ho' _) v c).
    + apply Hk. lia.
    + rewrite skipn_app_le by lia. now apply He.
  - (* the element at [off] is pending *)
    clear H. destruct (Hc _ Er) as [k1 Hk1].
    destruct (fst (rec (skipn off input ++ pad k1))) as [v c| | | |] eqn:E;
      [|contradiction
       |exists k1; intros [|lf'] Hl; [rewrite app_length in Hl; lia|];
        rewrite <- skipn_app_le in E by lia;
        rewrite (arr_loop_stop Ec (G' _) (Ho' _) _ E I); discriminate ..].
    (* completed: one more CR LF pair makes the next element (if any) an error *)
    pose proof (Hb _ _ _ E) as Hcb. rewrite app_length, skipn_length, pad_length in Hcb.
    assert (Hgt : length input - off < c).
    { apply Nat.nle_gt. intros Hle. rewrite <- skipn_length in Hle.
      pose proof (Hx _ _ _ E) as Hx1. rewrite firstn_app_le in Hx1 by exact Hle.
      pose proof (He _ (skipn c (skipn off input)) _ Hx1 I) as Hx2.
      rewrite firstn_skipn in Hx2. congruence. }
    exists (k1 + 1). intros [|lf'] Hl; rewrite app_length, pad_length in Hl; [lia|].
    rewrite (arr_loop_next Ec (G' _) (Ho' _) v c)
      by (rewrite skipn_app_le, pad_add, app_assoc by lia; now apply He).
    destruct (cnt - 1 =? 0)%N eqn:Ec2; [rewrite arr_loop_zero by assumption; discriminate|].
    destruct lf' as [|lf']; [lia|].
    rewrite (arr_loop_crlf _ _ Hcr) by (assumption || lia). discriminate.
Qed.

Lemma parse_array_compl codec rec : Bnd rec -> Ext rec -> Exact rec -> Compl rec ->
  (forall h t, h = 13%N \/ h = 10%N -> fst (rec (h :: t)) = Err EUnknownType) ->
  Compl (parse_array codec rec).
Proof.
  intros Hb He Hx Hc Hcr. apply (with_len_compl RNilArr (array_body codec rec)).
  intros b start len Hst _. unfold array_body.
  replace (length b <? start) with false by (symmetry; apply Nat.ltb_ge; lia).
  rewrite fst_tick. intros H.
  destruct (arr_loop_compl codec rec Hb He Hx Hc Hcr _ _ _ _ _ (proj2 Hst) H) as [k Hk].
  exists k.
  replace (length (b ++ pad k) <? start) with false
    by (symmetry; apply Nat.ltb_ge; rewrite app_length; lia).
  rewrite fst_tick. apply Hk. lia.
Qed.

Lemma parse_d_crlf codec d h t : h = 13%N \/ h = 10%N ->
  fst (parse_d codec d (h :: t)) = Err EUnknownType.
Proof. intros [-> | ->]; rewrite parse_d_eq; reflexivity. Qed.

Lemma parse_d_compl codec : forall d, Compl (parse_d codec d).
Proof.
  induction d as [|d IH]; intros s; (destruct s as [|h t];
    [intros _; exists 1; cbn [app pad]; rewrite parse_d_crlf by auto; discriminate|]);
    cbn [parse_d app];
    (by_head h;
     [apply (parse_line_compl _ (_ :: t))|apply (parse_line_compl _ (_ :: t))
     |apply (parse_integer_compl (_ :: t))|apply (parse_bulk_compl (_ :: t))
     | |discriminate]).
  - (* an array with no level left *) discriminate.
  - (* an array one level down *)
    apply (parse_array_compl codec (parse_d codec d));
      auto using parse_d_bnd, parse_d_ext, parse_d_exact, parse_d_crlf.
Qed.

Theorem incomplete_not_stuck codec b :
  parse codec b = Incomplete -> exists x, parse codec (b ++ x) <> Incomplete.
Proof.
  intros H. destruct (parse_d_compl codec MAX_DEPTH b H) as [k Hk]. exists (pad k). exact Hk.
Qed.
