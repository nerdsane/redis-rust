(* Every register stamp is used at most once in a cluster: the registers occurring in the
   deltas ever emitted form a partial function of their stamps.  This discharges, for closed
   runs, the hypothesis "respects U" of C06_sec (and is the cluster-level form of C08: a node's
   stamps strictly increase and carry its id). *)
From stdpp Require Import gmap.
From Coq Require Import NArith Lia.
From RV Require Import Lib.Hex Model.Crdt Proofs.CrdtProofs Model.ShardState
  Proofs.ShardStateProofs Model.Cluster Proofs.ClusterProofs.
Local Open Scope N_scope.

Definition reg_in (r : lww) (v : rvalue) : Prop :=
  match rv_crdt v with
  | CLww r' => r = r'
  | CHash h => ∃ f, h !! f = Some r
  | _ => False
  end.

(* a register created by node [rid] while its clock moved from b to e *)
Definition issued_by (rid b e : N) (r : lww) : Prop :=
  st_rid (lw_ts r) = rid ∧ b < st_time (lw_ts r) ≤ e.

Definition hash_fun (h : gmap (list N) lww) : Prop :=
  ∀ f f' r r', h !! f = Some r → h !! f' = Some r' → lw_ts r = lw_ts r' → r = r'.

Lemma hash_fun_insert h f r b :
  hash_fun h → map_Forall (λ _ x, st_time (lw_ts x) ≤ b) h → b < st_time (lw_ts r) →
  hash_fun (<[ f := r ]> h).
Proof.
  intros Hf Hb Hr g g' x x' [[_ <-]|[_ Hx]]%lookup_insert_Some [[_ <-]|[_ Hx']]%lookup_insert_Some E.
  - done.
  - specialize (Hb g' x' Hx'). simpl in Hb. rewrite E in Hr. lia.
  - specialize (Hb g x Hx). simpl in Hb. rewrite <- E in Hr. lia.
  - eauto.
Qed.

(* only a hash holds more than one register *)
Definition val_fun (v : rvalue) : Prop :=
  match rv_crdt v with CHash h => hash_fun h | _ => True end.

Lemma reg_in_fun v r r' : val_fun v → reg_in r v → reg_in r' v → lw_ts r = lw_ts r' → r = r'.
Proof.
  unfold val_fun, reg_in. destruct (rv_crdt v); try done.
  - intros _ -> ->. done.
  - intros Hf [f Hr] [f' Hr'] E. eauto.
Qed.

(* v is functional and under the clock value t, and its registers are those of v0 or were
   created by node rid after its clock read b *)
Definition vregs (rid b t : N) (v0 v : rvalue) : Prop :=
  val_fun v ∧ crdt_times_le (rv_crdt v) t ∧ ∀ r, reg_in r v → reg_in r v0 ∨ issued_by rid b t r.

Lemma vregs_refl rid b t v : val_fun v → crdt_times_le (rv_crdt v) t → vregs rid b t v v.
Proof. intros Hf Hle. split_and!; auto. Qed.

Lemma vregs_crdt rid b t v0 v v' : rv_crdt v' = rv_crdt v → vregs rid b t v0 v → vregs rid b t v0 v'.
Proof. unfold vregs, val_fun, reg_in. by intros ->. Qed.

Lemma hash_fun_empty : hash_fun ∅.
Proof. intros ? ? ? ? H. by rewrite lookup_empty in H. Qed.

(* one field written with a stamp of node rid above t (any other crdt counts as the empty hash) *)
Lemma vregs_insert rid b t v0 v f x st tomb vc e ts rf :
  vregs rid b t v0 v → b ≤ t → t < st_time st → st_rid st = rid →
  vregs rid b (st_time st) v0 (RV (CHash (<[ f := Lww x st tomb ]> (as_hash (rv_crdt v)))) vc e ts rf).
Proof.
  intros (Hf & Hle & Hp) Hb Ht Hr.
  assert (H : hash_fun (as_hash (rv_crdt v)) ∧
              map_Forall (λ _ r, st_time (lw_ts r) ≤ t) (as_hash (rv_crdt v)) ∧
              ∀ g r, as_hash (rv_crdt v) !! g = Some r → reg_in r v).
  { unfold val_fun, reg_in in *. destruct (rv_crdt v); cbn [as_hash crdt_times_le] in *; [..|by eauto];
      (split_and!; [apply hash_fun_empty|apply map_Forall_empty|intros ? ? H; by rewrite lookup_empty in H]). }
  destruct H as (Hf' & Hle' & Hin). split_and!; simpl.
  - by apply (hash_fun_insert _ _ _ t).
  - apply map_Forall_insert_2; [done|]. eapply map_Forall_impl; [exact Hle'|]. simpl. intros. lia.
  - intros r [g [[_ <-]|[_ Hg]]%lookup_insert_Some].
    + right. unfold issued_by; simpl. lia.
    + destruct (Hp r (Hin g r Hg)) as [?|(? & ?)]; [by left|right]. split; [done|lia].
Qed.

Lemma hash_set_all_regs b fs : ∀ s v v0,
  vregs (sh_rid s) b (sh_time s) v0 v → b ≤ sh_time s → sh_ovf (hash_set_all s v fs).1 = false →
  vregs (sh_rid s) b (sh_time (hash_set_all s v fs).1) v0 (hash_set_all s v fs).2.
Proof.
  induction fs as [|[f x] fs IH]; intros s v v0 Hv Hb Ho; [done|].
  rewrite hash_set_all_cons in *.
  pose proof (sticky_false _ _ (hash_set_all_ovf fs (tick s) _) Ho) as Hts.
  destruct (tick_spec s Hts) as (Ht & _ & Hr & _).
  rewrite <- Hr. apply IH; [|lia|done]. rewrite Hr.
  apply (vregs_insert _ _ (sh_time s) _ _ _ _ (now (tick s))); [done|done|simpl; lia|done].
Qed.

Lemma rv_hash_delete_regs b s v v0 f :
  vregs (sh_rid s) b (sh_time s) v0 v → b ≤ sh_time s → sh_ovf (rv_hash_delete s v f).1 = false →
  vregs (sh_rid s) b (sh_time (rv_hash_delete s v f).1) v0 (rv_hash_delete s v f).2.
Proof.
  intros Hv Hb Ho. unfold rv_hash_delete in *.
  destruct (rv_crdt v) as [| | | | |h] eqn:Hc;
    try (apply (vregs_crdt _ _ _ _ v); [by rewrite Hc|done]).
  destruct (h !! f); cbn [fst snd] in *; [|apply (vregs_crdt _ _ _ _ v); [by rewrite Hc|done]].
  destruct (tick_spec s Ho) as (Ht & _ & Hr & _).
  change h with (as_hash (CHash h)). rewrite <- Hc.
  apply (vregs_insert _ _ (sh_time s) _ _ _ _ (now (tick s))); [done|done|simpl; lia|done].
Qed.

Lemma hash_delete_all_regs b fs : ∀ s v v0,
  vregs (sh_rid s) b (sh_time s) v0 v → b ≤ sh_time s → sh_ovf (hash_delete_all s v fs).1 = false →
  vregs (sh_rid s) b (sh_time (hash_delete_all s v fs).1) v0 (hash_delete_all s v fs).2.
Proof.
  induction fs as [|f fs IH]; intros s v v0 Hv Hb Ho; [done|].
  rewrite hash_delete_all_cons in *.
  pose proof (sticky_false _ _ (hash_delete_all_ovf fs _ _) Ho) as Ho1.
  pose proof (rv_hash_delete_local s v f) as Hop. pose proof (lo_time _ _ _ Hop Ho1) as Ht.
  pose proof (rv_hash_delete_regs b s v v0 f Hv Hb Ho1) as H1.
  rewrite <- (lo_rid _ _ _ Hop) in H1 |- *. apply IH; [done|lia|done].
Qed.

Lemma rv_set_clock s v val :
  sh_time (rv_set s v val).1 = sh_time (tick s) ∧ sh_ovf (rv_set s v val).1 = sh_ovf (tick s).
Proof. unfold rv_set. by destruct (sh_causal (tick s)). Qed.

Lemma step_local_regs s e s1 d :
  Inv s → step s e = (s1, Some d) → sh_ovf s1 = false →
  (∀ v, sh_keys s !! ev_key e = Some v → val_fun v) →
  val_fun d ∧
  ∀ r, reg_in r d →
    (∃ v, sh_keys s !! ev_key e = Some v ∧ reg_in r v) ∨ issued_by (sh_rid s) (sh_time s) (sh_time s1) r.
Proof.
  intros HI (r & Hrun & -> & ->)%step_emits Ho Hvf.
  change (sh_ovf r.1 = false) in Ho. change (sh_time (put r.1 (key_of e) r.2)) with (sh_time r.1).
  (* the event starts from the stored value, or from a fresh one *)
  assert (Hq : vregs (sh_rid s) (sh_time s) (sh_time s) (start_value s e) (start_value s e) ∧
               ((∃ v, sh_keys s !! ev_key e = Some v ∧ start_value s e = v) ∨ start_value s e = fresh_value s e)).
  { unfold start_value. destruct (sh_keys s !! key_of e) as [v|] eqn:Hk; cbn [default].
    - split; [|left; by exists v]. apply vregs_refl; [by apply Hvf|apply (HI _ v Hk)].
    - split; [|by right]. apply vregs_refl; [destruct e; try done; apply hash_fun_empty|].
      apply (crdt_times_le_mono _ 0); [lia|apply fresh_value_zero]. }
  clear Hvf. revert Hrun Hq. generalize (start_value s e). intros v0 Hrun.
  destruct Hrun as [k val exp|k|k fs|k fs h Hc]; intros [Hv0 Hq]; cbn [fst snd ev_key fresh_value] in *.
  - destruct (rv_set_clock s v0 val) as [Et Eo]. rewrite Et. rewrite Eo in Ho.
    destruct (tick_spec s Ho) as (Ht & _ & Hr & _).
    split; [done|]. intros r ->. right. unfold issued_by, now; simpl. split; [done|lia].
  - unfold rv_delete in *.
    (* only a string is deleted; any other value is emitted as it is, and is then a stored one *)
    destruct (rv_crdt v0) as [r0| | | | |] eqn:Hc; cbn [fst snd] in *.
    { destruct (tick_spec s Ho) as (Ht & _ & Hr & _).
      split; [done|]. intros r ->. right. unfold issued_by, now; simpl. split; [done|lia]. }
    all: destruct Hq as [(v & Hk & ->)| ->]; [|discriminate Hc].
    all: split; [apply Hv0|]; intros r Hr; left; eauto.
  - destruct (hash_set_all_regs (sh_time s) fs s v0 v0 Hv0 (reflexivity _) Ho) as (Hf & _ & Hp).
    split; [done|]. intros r Hr. destruct (Hp r Hr) as [Hr0|?]; [left|by right].
    destruct Hq as [(v & Hk & ->)| ->]; [eauto|]. destruct Hr0 as [g Hg]. by rewrite lookup_empty in Hg.
  - destruct (hash_delete_all_regs (sh_time s) fs s v0 v0 Hv0 (reflexivity _) Ho) as (Hf & _ & Hp).
    split; [done|]. intros r Hr. destruct (Hp r Hr) as [Hr0|?]; [left|by right].
    destruct Hq as [(v & Hk & ->)| ->]; [eauto|discriminate Hc].
Qed.

Lemma reg_in_merge a b r : reg_in r (rv_merge a b) → reg_in r a ∨ reg_in r b.
Proof.
  unfold reg_in, rv_merge, merge_with_ts; cbn [rv_crdt].
  destruct (try_merge (rv_crdt a) (rv_crdt b)) as [m|] eqn:E.
  2:{ destruct (stamp_ltb _ _); tauto. }
  destruct (rv_crdt a) as [ra| | | | |ha], (rv_crdt b) as [rb| | | | |hb];
    try discriminate E; injection E as <-; try tauto.
  - destruct (lww_merge_cases ra rb) as [-> | ->]; auto.
  - intros [f [H|H]%hash_merge_pick]; eauto.
Qed.

Lemma step_local_plain s e s1 d :
  sh_causal s = false → is_local e = true →
  (∀ v, sh_keys s !! ev_key e = Some v → plain v) →
  step s e = (s1, Some d) → plain d.
Proof.
  intros Hca Hloc Hpl (r & Hrun & _ & ->)%step_emits.
  assert (Hv : plain (start_value s e)).
  { unfold start_value. destruct (sh_keys s !! key_of e) as [v|] eqn:Hk; [by apply Hpl|]. by destruct e. }
  revert Hrun Hv Hloc. generalize (start_value s e). intros v Hrun.
  destruct Hrun as [k val [x|]|k|k fs|k fs h Hc]; intros (P1 & P2 & P3) Hloc; try discriminate Hloc.
  - unfold rv_set, plain. cbn. by rewrite (proj2 (proj2 (tick_fields s))), Hca.
  - unfold rv_delete. by destruct (rv_crdt v).
  - destruct (hash_set_all_meta fs s v) as (A & B & C). unfold plain. by rewrite A, B, C.
  - destruct (hash_delete_all_meta fs s v) as (A & B & C). unfold plain. by rewrite A, B, C.
Qed.

Lemma rv_merge_plain a b : plain a → plain b → plain (rv_merge a b).
Proof. intros (A1 & A2 & A3) (B1 & B2 & B3). unfold plain, rv_merge; simpl. by rewrite A1, A2, A3, B1, B2, B3. Qed.

Definition log_reg (log : list (nat * list N * rvalue)) (r : lww) : Prop :=
  ∃ o k d, In (o, k, d) log ∧ reg_in r d.

(* a node's replication state against the log, its clock apart *)
Record node_ok (log : logt) (i : nat) (n : node) : Prop := NodeOk {
  ok_rid : sh_rid (n_sh n) = N.of_nat (S i);
  ok_causal : sh_causal (n_sh n) = false;
  ok_inv : Inv (n_sh n);
  ok_wf : WfInv (n_sh n);
  ok_plain : ∀ k v, sh_keys (n_sh n) !! k = Some v → plain v;
  ok_hist : ∀ k d, In d (hist_of n k) → ∃ o, In (o, k, d) log;
  ok_regs : ∀ k v r, sh_keys (n_sh n) !! k = Some v → reg_in r v → log_reg log r
}.
Arguments ok_rid {_ _ _}. Arguments ok_causal {_ _ _}. Arguments ok_inv {_ _ _}. Arguments ok_wf {_ _ _}.
Arguments ok_plain {_ _ _}. Arguments ok_hist {_ _ _}. Arguments ok_regs {_ _ _}.

Definition clock_covers (log : logt) (n : node) : Prop :=
  ∀ r, log_reg log r → st_rid (lw_ts r) = sh_rid (n_sh n) → st_time (lw_ts r) ≤ sh_time (n_sh n).

Definition node_good (log : logt) (i : nat) (n : node) : Prop :=
  node_ok log i n ∧ clock_covers log n.

(* every stamp with a node's id occurs in a delta that node emitted itself (so that the replay
   of its own deltas brings a restarted node's clock past all of them) *)
Definition Cover (log : logt) : Prop :=
  ∀ r, log_reg log r → ∃ o k d, In (o, k, d) log ∧ N.of_nat (S o) = st_rid (lw_ts r) ∧ reg_in r d.

Record GInv (c : list node) (log : logt) : Prop := MkGInv {
  g_unique : ∀ r r', log_reg log r → log_reg log r' → lw_ts r = lw_ts r' → r = r';
  g_nodes : ∀ i n, c !! i = Some n → node_good log i n;
  g_log : ∀ o k d, In (o, k, d) log → wf_value d ∧ plain d;
  g_cover : Cover log
}.
Arguments g_unique {_ _}. Arguments g_nodes {_ _}. Arguments g_log {_ _}. Arguments g_cover {_ _}.

Lemma log_reg_mono log ext r : log_reg log r → log_reg (log ++ ext) r.
Proof. intros (o & k & d & Hin & Hr). exists o, k, d. split; [apply in_or_app; by left|done]. Qed.

Lemma node_ok_mono log ext i n : node_ok log i n → node_ok (log ++ ext) i n.
Proof.
  intros Hok. split; try apply Hok.
  - intros k d Hd. destruct (ok_hist Hok k d Hd) as [o Ho]. exists o. apply in_or_app. by left.
  - intros k v r Hk Hr. apply log_reg_mono. by apply (ok_regs Hok k v).
Qed.

Lemma node_good_ext log i n n1 :
  n_sh n1 = n_sh n → n_hist n1 = n_hist n → node_good log i n → node_good log i n1.
Proof.
  intros Es Eh [Hok Hc]. split; [|unfold clock_covers; by rewrite Es].
  destruct Hok. split; rewrite ?Es; unfold hist_of; rewrite ?Eh; done.
Qed.

Lemma node_init_ok log i : node_ok log i (node_init (N.of_nat (S i))).
Proof.
  split; unfold node_init, shard_init, hist_of; simpl; auto.
  - apply stored_init.
  - apply stored_init.
  - intros k v H. by rewrite lookup_empty in H.
  - intros k d. rewrite lookup_empty. simpl. intros [].
  - intros k v r H. by rewrite lookup_empty in H.
Qed.

Lemma node_ok_step log i n e s1 od x1 b d v :
  node_ok log i n → step (n_sh n) e = (s1, od) → wf_event e → sh_ovf s1 = false →
  sh_keys s1 !! ev_key e = Some v → plain v →
  (∃ o, In (o, ev_key e, d) log) → (∀ r, reg_in r v → log_reg log r) →
  node_ok log i (Node x1 s1 (hist_push (n_hist n) (ev_key e) d) b).
Proof.
  intros Hok Hstep Hwf Ho Hk Hpl Hin Hreg.
  destruct (step_wf _ _ _ _ Hstep (ok_inv Hok) (ok_wf Hok) Hwf Ho) as (HW1 & _).
  split; cbn [n_sh]; try done.
  - by rewrite (step_rid _ _ _ _ Hstep), (ok_rid Hok).
  - by rewrite (step_causal _ _ _ _ Hstep), (ok_causal Hok).
  - by apply (step_inv _ _ _ _ Hstep (ok_inv Hok)).
  - intros k' v' Hk'. destruct (decide (k' = ev_key e)) as [->|Hnk].
    + rewrite Hk in Hk'. by injection Hk' as <-.
    + rewrite (step_other _ _ _ _ k' Hstep) in Hk' by done. by apply (ok_plain Hok k').
  - intros k' d' Hd'. rewrite hist_of_push in Hd'.
    destruct (decide (ev_key e = k')) as [<-|Hnk]; [|by apply (ok_hist Hok)].
    apply in_app_or in Hd' as [Hd'|[<-|[]]]; [by apply (ok_hist Hok)|done].
  - intros k' v' r Hk' Hr. destruct (decide (k' = ev_key e)) as [->|Hnk].
    + rewrite Hk in Hk'. injection Hk' as <-. by apply Hreg.
    + rewrite (step_other _ _ _ _ k' Hstep) in Hk' by done. by apply (ok_regs Hok k' v').
Qed.

Lemma node_deliver_ok log i n k d o :
  (∀ o k d, In (o, k, d) log → wf_value d ∧ plain d) →
  node_ok log i n → In (o, k, d) log → sh_ovf (n_sh (node_deliver n k d)) = false →
  node_ok log i (node_deliver n k d) ∧
  sh_time (n_sh n) ≤ sh_time (n_sh (node_deliver n k d)) ∧
  times_le d (sh_time (n_sh (node_deliver n k d))).
Proof.
  intros G3 Hok Hin Hno. destruct (G3 o k d Hin) as [Hdwf Hdpl].
  pose proof (step_remote_stored (n_sh n) k d) as Hmerged.
  destruct (node_deliver_shape n k d) as (x1 & b1 & Hn1). rewrite Hn1 in *. clear Hn1.
  destruct (step (n_sh n) (ERemote k d)) as [s1 od] eqn:Hstep. cbn [fst n_sh] in *.
  destruct (step_ok _ _ _ _ Hstep (ok_inv Hok) Hdwf Hno) as (_ & _ & _ & _ & Hinp & _).
  split; [|split; [exact (step_time_mono _ _ _ _ Hstep Hno)|by apply Hinp]].
  apply (node_ok_step log i n (ERemote k d) s1 od _ _ d _ Hok Hstep Hdwf Hno Hmerged); [|by exists o|].
  - destruct (sh_keys (n_sh n) !! k) as [l|] eqn:Hl; [|done].
    apply rv_merge_plain; [by apply (ok_plain Hok k)|done].
  - intros r Hr. destruct (sh_keys (n_sh n) !! k) as [l|] eqn:Hl; [|by exists o, k, d].
    apply reg_in_merge in Hr as [Hr|Hr]; [by apply (ok_regs Hok k l)|by exists o, k, d].
Qed.

Lemma client_ginv c log j n cmd n1 r0 od :
  GInv c log → c !! j = Some n → node_exec n cmd = (n1, r0, od) → sh_ovf (n_sh n1) = false →
  GInv (<[ j := n1 ]> c) (match od with Some (k, d) => log ++ [(j, k, d)] | None => log end).
Proof.
  intros HG Hj Hx Ho.
  destruct (node_exec_cases _ _ _ _ _ Hx) as [(Es & Eh & ->)|(e & s1 & d & x1 & Hloc & Hstep & -> & ->)].
  { split; try apply HG. apply insert_nodes; [intros i n' Hi _; by apply (g_nodes HG)|].
    by apply (node_good_ext log j n), (g_nodes HG). }
  destruct (g_nodes HG j n Hj) as [Hok Hclock].
  (* a delta d is emitted for key k := ev_key e *)
  set (k := ev_key e) in *.
  cbn [n_sh] in Ho.
  pose proof (is_local_wf e Hloc) as Hwf.
  pose proof (step_time_mono _ _ _ _ Hstep Ho) as Hmono. pose proof (step_rid _ _ _ _ Hstep) as Hrid.
  destruct (step_wf _ _ _ _ Hstep (ok_inv Hok) (ok_wf Hok) Hwf Ho) as (_ & Hdwf).
  assert (Hlast : In (j, k, d) (log ++ [(j, k, d)])) by (apply in_or_app; right; by left).
  assert (Hvfun : ∀ v, sh_keys (n_sh n) !! k = Some v → val_fun v).
  { intros v Hv. unfold val_fun. destruct (rv_crdt v) as [| | | | |h] eqn:Hc; try done.
    intros f f' r r' Hr Hr' Ets.
    apply (g_unique HG); [| |done]; apply (ok_regs Hok k v _ Hv); unfold reg_in; rewrite Hc; eauto. }
  destruct (step_local_regs _ _ _ _ (ok_inv Hok) Hstep Ho Hvfun) as [Hdfun Hprov].
  pose proof (step_local_plain _ _ _ _ (ok_causal Hok) Hloc (ok_plain Hok k) Hstep) as Hdpl.
  pose proof (step_stored _ _ _ _ Hstep : sh_keys s1 !! k = Some d) as Hstored.
  (* a register of the extended log is an old one or a new one of node j in d *)
  assert (Hnew : ∀ r, log_reg (log ++ [(j, k, d)]) r →
            log_reg log r ∨ reg_in r d ∧ issued_by (sh_rid (n_sh n)) (sh_time (n_sh n)) (sh_time s1) r).
  { intros r (o & k' & d' & [Hin|[[= <- <- <-]|[]]]%in_app_or & Hr); [left; by exists o, k', d'|].
    destruct (Hprov r Hr) as [(v & Hv & Hrv)|Hf]; [left; by apply (ok_regs Hok k v)|by right]. }
  split.
  - (* an old register with node j's id is under its old clock, a new one above *)
    intros r r' Hr Hr' Ets.
    destruct (Hnew r Hr) as [Hold|[Hd [Hf1 Hf2]]], (Hnew r' Hr') as [Hold'|[Hd' [Hf1' Hf2']]].
    + by apply (g_unique HG).
    + exfalso. pose proof (Hclock r Hold) as Hb. rewrite Ets in Hb. specialize (Hb Hf1'). lia.
    + exfalso. pose proof (Hclock r' Hold') as Hb. rewrite <- Ets in Hb. specialize (Hb Hf1). lia.
    + by apply (reg_in_fun d).
  - apply insert_nodes.
    + intros i n' Hi Hne. destruct (g_nodes HG i n' Hi) as [Hok' Hclock']. split; [by apply node_ok_mono|].
      intros r Hr Hridr. destruct (Hnew r Hr) as [Hold|[_ [Hf1 _]]]; [by apply Hclock'|].
      exfalso. rewrite Hf1, (ok_rid Hok), (ok_rid Hok') in Hridr. lia.
    + split.
      * apply (node_ok_step _ j n e s1 (Some d) _ _ d d (node_ok_mono log [(j, k, d)] j n Hok) Hstep Hwf Ho Hstored Hdpl).
        -- by exists j.
        -- intros r Hr. by exists j, k, d.
      * intros r Hr Hridr. cbn [n_sh] in *. rewrite Hrid in Hridr.
        destruct (Hnew r Hr) as [Hold|[_ [_ Hf2]]]; [specialize (Hclock r Hold Hridr)|]; lia.
  - intros o k' d' [Hin|[[= <- <- <-]|[]]]%in_app_or; [by apply (g_log HG o k' d')|].
    split; [by apply Hdwf|done].
  - (* the new registers carry the writer's id *)
    intros r Hr. destruct (Hnew r Hr) as [Hold|[Hd [Hf1 _]]].
    + destruct (g_cover HG r Hold) as (o & k' & d' & Hin & Ho' & Hd').
      exists o, k', d'. split; [apply in_or_app; by left|done].
    + exists j, k, d. split; [done|]. split; [by rewrite Hf1, (ok_rid Hok)|done].
Qed.

Lemma deliver_ginv c log j n k d o :
  GInv c log → c !! j = Some n → In (o, k, d) log → sh_ovf (n_sh (node_deliver n k d)) = false →
  GInv (<[ j := node_deliver n k d ]> c) log.
Proof.
  intros HG Hj Hin Ho. destruct (g_nodes HG j n Hj) as [Hok Hclock].
  destruct (node_deliver_ok log j n k d o (g_log HG) Hok Hin Ho) as (Hok1 & Hmono & _).
  split; try apply HG. apply insert_nodes; [intros i n' Hi _; by apply (g_nodes HG)|]. split; [done|].
  intros r Hr Hridr. rewrite (ok_rid Hok1), <- (ok_rid Hok) in Hridr. specialize (Hclock r Hr Hridr). lia.
Qed.

Definition no_ovf (c : list node) : Prop := ∀ i n, c !! i = Some n → sh_ovf (n_sh n) = false.

Fixpoint deliveries_from_log (c : list node) (log : list (nat * list N * rvalue)) (evs : list cev) : Prop :=
  match evs with
  | [] => True
  | e :: r =>
      match e with
      | CClient _ _ => True
      | CDeliver _ k d => ∃ o, In (o, k, d) log
      end ∧ deliveries_from_log (cstep c log e).1 (cstep c log e).2 r
  end.

Lemma cstep_ginv c log e c1 l1 :
  GInv c log → match e with CClient _ _ => True | CDeliver _ k d => ∃ o, In (o, k, d) log end →
  cstep c log e = (c1, l1) → no_ovf c1 → GInv c1 l1.
Proof.
  intros HG He Hs. revert He. destruct (cstep_cases _ _ _ _ _ Hs) as [|j n cmd n1 r od Hj Hx|j n k d Hj];
    intros He Hno; [done| |].
  - apply (client_ginv c log j n cmd n1 r od HG Hj Hx).
    apply (Hno j), list_lookup_insert. by eapply lookup_lt_Some.
  - destruct He as [o Ho]. apply (deliver_ginv c log j n k d o HG Hj Ho).
    apply (Hno j), list_lookup_insert. by eapply lookup_lt_Some.
Qed.

Lemma GInv_init n : GInv (cluster_init n) [].
Proof.
  split.
  - intros r r' (o & k & d & [] & _).
  - intros i n0 ->%cluster_init_lookup. split; [apply node_init_ok|].
    intros r (o & k & d & [] & _).
  - intros o k d [].
  - intros r (o & k & d & [] & _).
Qed.

Lemma crun_ginv evs : ∀ c log,
  GInv c log → deliveries_from_log c log evs → no_ovf (crun c log evs).1 →
  GInv (crun c log evs).1 (crun c log evs).2.
Proof.
  induction evs as [|e evs IH]; intros c log HG Hv Hno; simpl in *; [done|].
  destruct Hv as [He Hv].
  destruct (cstep c log e) as [c1 l1] eqn:Hs. cbn [fst snd] in *.
  apply IH; [|done|done].
  (* intermediate nodes did not overflow, since the final ones did not *)
  assert (Hno1 : ∀ i n1, c1 !! i = Some n1 → sh_ovf (n_sh n1) = false).
  { intros i n1 Hi. destruct (crun c1 l1 evs) as [cf lf] eqn:Hr.
    destruct (crun_le evs c1 l1 cf lf i n1 Hr Hi) as (nf & Hf & [_ Hov]).
    exact (sticky_false _ _ Hov (Hno i nf Hf)). }
  by apply (cstep_ginv c log e c1 l1).
Qed.
