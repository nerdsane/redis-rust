(* C02 — concurrent clients on one node see a linearizable per-key history.
   The invariant of the protocol and the general lemmas behind each statement are in
   Proofs/ActorProofs.v.

   Scope (partial claim): the theorems are about Model/Actor.v, the message-passing
   protocol of the shard actors: FIFO mailboxes, one machine per shard, one reply cell per
   request (oneshot or pooled slot), clients with one request in flight; every schedule of
   clients and shard tasks is a list of labels accepted by [run].  The tokio scheduler, the
   lock/waker protocol inside ResponseSlot, future cancellation and the unchecked UTF-8
   conversion of keys are outside this model and are only explored by concurrent runs of the
   real code (harness/src/bin/c02.rs), whose histories are judged by [lin_check] below. *)
From Coq Require Import List Arith NArith ZArith Bool Permutation Sorted.
From RV Require Import Lib.Hex Model.Actor Proofs.ActorProofs.
Import ListNotations.

(* For every machine, routing function, pool size and schedule: (1) the Process order is a
   legal sequential run of the node (the product of the shard machines) that ends in the
   shards' current states; (2) every reply a client got is the reply computed when that
   client's own request was processed, at an instant strictly between its invocation and its
   response; (3) hence real-time order is respected; instants are positions in the trace. *)
Theorem actor_linearizable :
  forall (S Op Reply : Type) (step : S -> Op -> S * Reply) (route : Op -> nat) (cap : nat)
         (g0 : nat -> S) (prewarm : nat) (ls : list (label Op)) s evs,
  run step route cap (sys_init g0 prewarm) ls = Some (s, evs) ->
  (legal (nat -> S) Op Reply (gstep step route) g0 (procs evs) /\
   forall sh, final (nat -> S) Op Reply (gstep step route) g0 (procs evs) sh = mach s sh) /\
  (forall rq r t, In (ERet rq r t) evs ->
     exists k tp, In (EInv rq k) evs /\ In (EProc (route (rq_op rq)) rq r tp) evs /\
                  rq_tinv rq < tp /\ tp < t) /\
  (forall a ra ta b shb rb tb, In (ERet a ra ta) evs -> ta < rq_tinv b ->
     In (EProc shb b rb tb) evs ->
     exists tpa, In (EProc (route (rq_op a)) a ra tpa) evs /\ tpa < tb) /\
  map ev_time evs = seq 0 (length evs).
Proof.
  intros * H. apply run_inv in H.
  split; [eapply i_legal; exact H|].
  split; [intros; eapply inv_reply_own; eassumption|].
  split; [intros; eapply inv_real_time; eassumption|].
  erewrite i_time, inv_now by exact H. reflexivity.
Qed.
Print Assumptions actor_linearizable.

(* Reply cells never cross requests: two in-flight requests never share a cell, an in-flight
   cell is not in the pool, the pool holds no cell twice, and the reply a client reads from
   its cell is the reply computed for its own request (whichever kind of cell it is). *)
Theorem slot_exclusive :
  forall (S Op Reply : Type) (step : S -> Op -> S * Reply) (route : Op -> nat) (cap : nat)
         (g0 : nat -> S) (prewarm : nat) (ls : list (label Op)) s evs,
  run step route cap (sys_init g0 prewarm) ls = Some (s, evs) ->
  (forall c1 c2 rq1 rq2 k1 k2, cli s c1 = Waiting rq1 k1 -> cli s c2 = Waiting rq2 k2 ->
     rq_slot rq1 = rq_slot rq2 -> c1 = c2) /\
  (forall c rq k, cli s c = Waiting rq k -> ~ In (rq_slot rq) (free s)) /\
  NoDup (free s) /\
  (forall c s' rq r t, sys_step step route cap s (LReturn c) = Some (s', ERet rq r t) ->
     rq_client rq = c /\
     exists k tp, In (EInv rq k) evs /\ In (EProc (route (rq_op rq)) rq r tp) evs) /\
  (forall rq r t, In (ERet rq r t) evs ->
     exists k tp, In (EInv rq k) evs /\ In (EProc (route (rq_op rq)) rq r tp) evs).
Proof.
  intros * H. apply run_inv in H.
  split; [eapply i_excl; exact H|].
  split; [intros c rq k Hw; eapply i_wait; eassumption|].
  split; [eapply i_free; exact H|].
  split; [intros; eapply inv_return_own; eassumption|].
  intros rq r t Hr. destruct (inv_reply_own H Hr) as (k & tp & Hi & Hp & _). eauto.
Qed.
Print Assumptions slot_exclusive.

(* The linearization-point form implies the classical definition, for every machine and
   every history with completed and pending operations. *)
Theorem points_imply_linearizable :
  forall (S Op Reply : Type) (step : S -> Op -> S * Reply) init comp pend,
  lin_points S Op Reply step init comp pend -> linearizable S Op Reply step init comp pend.
Proof. exact lin_points_linearizable. Qed.
Print Assumptions points_imply_linearizable.

(* So the history of every trace is linearizable in the classical sense w.r.t. the node. *)
Theorem actor_history_linearizable :
  forall (S Op Reply : Type) (step : S -> Op -> S * Reply) (route : Op -> nat) (cap : nat)
         (g0 : nat -> S) (prewarm : nat) (ls : list (label Op)) s evs,
  run step route cap (sys_init g0 prewarm) ls = Some (s, evs) ->
  linearizable (nat -> S) Op Reply (gstep step route) g0 (completed evs) (pending evs).
Proof.
  intros * H. eapply inv_linearizable, run_inv, H.
Qed.
Print Assumptions actor_history_linearizable.

(* Per key: if operations are key-local (an operation touching key k acts on k's part of the
   state as the per-key machine does and does not disturb other keys — C01's locality) and
   routing is single-homed (every path sends every operation touching k to k's one shard —
   C03's routing theorem), then the projection of the history of any trace to any key is
   linearizable w.r.t. that key's machine, whichever kind of message carried each command. *)
Theorem per_key :
  forall (S Op Reply : Type) (step : S -> Op -> S * Reply) (route : Op -> nat)
         (K V KReply : Type) (touches : Op -> K -> bool) (view : S -> K -> V)
         (kstep : K -> V -> Op -> V * KReply) (rproj : K -> Reply -> KReply) (home : K -> nat),
  (forall s op k, touches op k = true ->
     kstep k (view s k) op = (view (fst (step s op)) k, rproj k (snd (step s op)))) ->
  (forall s op k, touches op k = false -> view (fst (step s op)) k = view s k) ->
  (forall op k, touches op k = true -> route op = home k) ->
  forall cap (g0 : nat -> S) prewarm (ls : list (label Op)) s evs k,
  run step route cap (sys_init g0 prewarm) ls = Some (s, evs) ->
  linearizable V Op KReply (kstep k) (view (g0 (home k)) k)
    (proj_hist Op Reply KReply K touches rproj k (completed evs))
    (proj_pend Op K touches k (pending evs)).
Proof.
  intros. eapply linearizable_project; [eassumption..|].
  eapply actor_history_linearizable; eassumption.
Qed.
Print Assumptions per_key.

(* A batch (FastBatchGet/FastBatchSet, the commands of a Lua script) of key-local primitives
   is one operation that satisfies the two locality hypotheses of [per_key]: its effect on
   key k is the atomic run of its primitives on k.  ([kbatch_step], the batch machine, with
   [kbatch_touches], [kbatch_kstep] and [kbatch_rproj] are defined in Section BatchLocal of
   Proofs/ActorProofs.v.) *)
Theorem batch_key_local :
  forall (S POp PReply K V : Type) (pstep : S -> POp -> S * PReply) (pkey : POp -> K)
         (keqb : K -> K -> bool),
  (forall a b, keqb a b = true <-> a = b) ->
  forall (view : S -> K -> V) (pkstep : V -> POp -> V * PReply),
  (forall s p, pkstep (view s (pkey p)) p = (view (fst (pstep s p)) (pkey p), snd (pstep s p))) ->
  (forall s p k, k <> pkey p -> view (fst (pstep s p)) k = view s k) ->
  (forall s b k, kbatch_touches POp K pkey keqb b k = true ->
     kbatch_kstep POp PReply K V pkey keqb pkstep k (view s k) b =
     (view (fst (kbatch_step S POp PReply K pstep pkey s b)) k,
      kbatch_rproj PReply K keqb k (snd (kbatch_step S POp PReply K pstep pkey s b)))) /\
  (forall b s k, kbatch_touches POp K pkey keqb b k = false ->
     view (fst (kbatch_step S POp PReply K pstep pkey s b)) k = view s k).
Proof.
  intros * He * Hl Hf.
  split; [intros s b k _; eapply kbatch_local|eapply kbatch_frame]; eassumption.
Qed.
Print Assumptions batch_key_local.

(* The executable checker of the correspondence is sound and complete for complete
   per-key histories over the per-key machine [tkstep] (value + deadline + clock; strings, lists, sets, hashes: GET, SET [NX|XX] [GET], SETNX,
   GETSET, GETDEL, INCRBY, APPEND, SETRANGE, DEL, EXISTS, LPUSH/RPUSH/LPOP/RPOP, SADD/SREM, HSET/HDEL,
   SET PX/EX/KEEPTTL, EXPIRE/PEXPIRE, PERSIST, TTL/PTTL, GETEX, clock advances; atomic lists of these): it answers true exactly when some permutation of the history that
   respects real-time order is a legal sequential run with the observed replies. *)
Theorem lin_check_sound : forall init h,
  lin_check init h = true ->
  linearizable_complete tst (list cmd) (list prep) tkstep init h.
Proof. intros init h. exact (proj1 (lin_check_gen_exact tkstep preps_eqb_eq init h)). Qed.
Print Assumptions lin_check_sound.

Theorem lin_check_complete : forall init h,
  linearizable_complete tst (list cmd) (list prep) tkstep init h ->
  lin_check init h = true.
Proof. intros init h. exact (proj2 (lin_check_gen_exact tkstep preps_eqb_eq init h)). Qed.
Print Assumptions lin_check_complete.

(* with distinct operation ids this is the classical definition (no pending operations) *)
Theorem lin_check_classical : forall init h,
  NoDup (map o_id h) -> lin_check init h = true ->
  linearizable tst (list cmd) (list prep) tkstep init h [].
Proof.
  intros init h Hn Hc.
  exact (complete_linearizable Hn (lin_check_sound init h Hc)).
Qed.
Print Assumptions lin_check_classical.

(* the independent brute-force decision (all permutations, then test) is exact as well, so
   the two procedures always agree; a [false] answer needs no further confirmation *)
Theorem lin_brute_exact : forall init h,
  lin_brute init h = true <->
  linearizable_complete tst (list cmd) (list prep) tkstep init h.
Proof. exact (lin_brute_gen_exact tkstep preps_eqb_eq). Qed.
Print Assumptions lin_brute_exact.

Theorem lin_check_agrees_with_brute : forall init h, lin_check init h = lin_brute init h.
Proof. exact (lin_check_brute_gen_agree tkstep preps_eqb_eq). Qed.
Print Assumptions lin_check_agrees_with_brute.

(* the order in which a history is listed does not matter (the harness lists each window in
   the order of the linearization its own search found, which only shortens Coq's search) *)
Theorem lin_check_listing_irrelevant : forall init h h',
  Permutation h h' -> lin_check init h = lin_check init h'.
Proof. exact (lin_check_gen_perm tkstep preps_eqb_eq). Qed.
Print Assumptions lin_check_listing_irrelevant.

(* the keyed store (keys are numbers, an operation = a key and an atomic list of primitives)
   satisfies the three hypotheses of [per_key] for any number of shards *)
Example C02_store_satisfies_hypotheses : forall n,
  (forall (s : nat -> kst) op k, store_touches op k = true ->
     store_kstep k (store_view s k) op = (store_view (fst (store_step s op)) k, snd (store_step s op))) /\
  (forall (s : nat -> kst) op k, store_touches op k = false ->
     store_view (fst (store_step s op)) k = store_view s k) /\
  (forall op k, store_touches op k = true -> store_route n op = Nat.modulo k n).
Proof.
  intro n. exact (conj store_key_local (conj store_key_frame (store_single_homed n))).
Qed.
Print Assumptions C02_store_satisfies_hypotheses.

(* a concrete schedule: two shards, pool of capacity 1 with one prewarmed slot, three clients,
   pooled and generic requests in flight together; slot 0 is released and re-acquired while
   client 1 is still waiting, the last release finds the pool full; four operations complete,
   overlapping in time *)
Definition ex_labels : list (label (nat * list prim)) :=
  [ LInvoke 0 KPooled (1, [PSet [97%N]]); LInvoke 1 KPooled (1, [PGet]);
    LInvoke 2 KGeneric (2, [PIncr]); LProcess 1; LProcess 0; LReturn 0;
    LInvoke 0 KPooled (2, [PGet]); LProcess 1; LProcess 0; LReturn 1; LReturn 2; LReturn 0 ].

Example C02_nonvacuous :
  match run store_step (store_route 2) 1 (sys_init (fun _ _ => KNone) 1) ex_labels with
  | Some (s, evs) =>
      free s = [1] /\ next_slot s = 3 /\
      map (fun e => match e with EInv rq _ => Some (rq_slot rq) | _ => None end) evs =
        [Some 0; Some 1; Some 2; None; None; None; Some 0; None; None; None; None; None] /\
      map (fun o => (o_id o, o_inv o, o_ret o, o_op o, o_rep o)) (completed evs) =
        [(0, 0, Some 5, (1, [PSet [97%N]]), [ROk]);
         (1, 1, Some 9, (1, [PGet]), [RVal (Some [97%N])]);
         (2, 2, Some 10, (2, [PIncr]), [RInt 1%Z]);
         (3, 6, Some 11, (2, [PGet]), [RVal (Some [49%N])])]
  | None => False
  end.
Proof. vm_compute. repeat split; reflexivity. Qed.
Print Assumptions C02_nonvacuous.

(* the checker accepts a linearizable history with overlap, rejects a stale read, and knows that
   a plain SET clears the deadline: after SET v PX 150, SET v, clock +200 the key is still there *)
Example C02_checker_discriminates :
  lin_check (TSt KNone None 0) [OpRec 0 0 (Some 3) [CP (PSet [97%N])] [ROk];
                  OpRec 1 1 (Some 4) [CP PGet] [RVal None];
                  OpRec 2 5 (Some 6) [CP PGet] [RVal (Some [97%N])]] = true /\
  lin_check (TSt KNone None 0) [OpRec 0 0 (Some 1) [CP (PSet [97%N])] [ROk];
                  OpRec 1 2 (Some 3) [CP PGet] [RVal None]] = false /\
  lin_check (TSt KNone None 0) [OpRec 0 0 (Some 1) [CSetPx [97%N] 150] [ROk];
                  OpRec 1 2 (Some 3) [CP (PSet [97%N])] [ROk];
                  OpRec 2 4 (Some 5) [CAdv 200] [ROk];
                  OpRec 3 6 (Some 7) [CP PGet] [RVal None]] = false /\
  lin_check (TSt KNone None 0) [OpRec 0 0 (Some 1) [CSetPx [97%N] 150] [ROk];
                  OpRec 1 2 (Some 3) [CAdv 200] [ROk];
                  OpRec 2 4 (Some 5) [CP PGet] [RVal None]] = true.
Proof. vm_compute. repeat split; reflexivity. Qed.
Print Assumptions C02_checker_discriminates.
