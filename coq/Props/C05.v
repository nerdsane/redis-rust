(* C05 - MULTI/EXEC is all-or-nothing and equals the sequential run; WATCH aborts on change.

   Model/Conn.v: [dispatch c cm] is the `Ok(cmd)` arm of try_execute_command of the production
   connection handler (the connection-level transaction state machine: in_transaction, queue,
   transaction_errors, watched_keys), [handle_frame c v] adds Command::from_resp_zero_copy; a core
   [c] is (backend state, transaction state, replies written).  [run_queue s q] is EXEC's replay loop.
   [sys] / [step2] / [run2]: two connections A (true) and B (false) on one backend whose commands
   interleave at command boundaries in any order.  Everything is generic in the backend ([exec] is
   ShardedActorState::execute); the WATCH statements need [exec s (cmd_get k)] to leave the state alone. *)
From Coq Require Import String NArith ZArith List.
From RV Require Import Lib.Hex Model.Resp Model.Conn Model.MiniExec Proofs.ConnProofs.
Import ListNotations.

Section Generic.
  Variable St : Type.
  Variable cmd : Type.
  Variable decode_cmd : resp -> cmd + list N.
  Variable exec : St -> cmd -> St * resp.
  Variable kind : cmd -> ckind.
  Variable cmd_get : list N -> cmd.
  Variable stub_reply : cmd -> resp.

  Notation HF := (handle_frame St cmd decode_cmd exec kind cmd_get stub_reply).
  Notation DISPATCH := (dispatch St cmd exec kind cmd_get stub_reply).
  Notation RQ := (run_queue St cmd exec).
  Notation GETR := (get_reply St cmd exec cmd_get).
  Notation STEP2 := (step2 St cmd decode_cmd exec kind cmd_get stub_reply).
  Notation RUN2 := (run2 St cmd decode_cmd exec kind cmd_get stub_reply).

  (* Commands sent between MULTI and EXEC have no effect: whatever frame other than EXEC arrives
     while the connection is in a transaction, the backend state is untouched ... *)
  Theorem C05_queued_no_effect : forall (c : core St cmd) (v : resp),
    in_tx _ (txs _ _ c) = true ->
    (forall cm, decode_cmd v = inl cm -> kind cm <> KExec) ->
    st _ _ (HF c v) = st _ _ c.
  Proof. exact queued_no_effect. Qed.

  (* ... and no result: a queueable command is answered QUEUED and appended to the queue. *)
  Theorem C05_queued_reply : forall (c : core St cmd) (cm : cmd),
    in_tx _ (txs _ _ c) = true -> queueable (kind cm) ->
    DISPATCH c cm =
    mkCore _ _ (st _ _ c)
           (mkTx _ true (queue _ (txs _ _ c) ++ [cm]) (tx_err _ (txs _ _ c)) (watched _ (txs _ _ c)))
           (outp _ _ c ++ [R_QUEUED]).
  Proof. exact queued_reply. Qed.

  (* EXEC with no queue-time error and unchanged watched keys: the backend ends in the state reached
     by executing the queue consecutively from the state at EXEC, and the reply is the array of
     exactly those results, one per queued command ... *)
  Theorem C05_exec_eq_sequential : forall (c : core St cmd) (cm : cmd) (s1 : St),
    in_tx _ (txs _ _ c) = true -> tx_err _ (txs _ _ c) = false -> kind cm = KExec ->
    watch_unchanged St cmd exec cmd_get (st _ _ c) (watched _ (txs _ _ c)) = (s1, true) ->
    let q := queue _ (txs _ _ c) in
    DISPATCH c cm = mkCore _ _ (fst (RQ s1 q)) (tx_idle cmd) (outp _ _ c ++ [RArr (snd (RQ s1 q))]) /\
    length (snd (RQ s1 q)) = length q.
  Proof.
    intros c cm s1 H1 H2 H3 H4. split.
    - exact (exec_applies c cm s1 H1 H2 H3 H4).
    - exact (run_queue_length _ s1).
  Qed.

  (* ... where "consecutively" means: each command runs in the state its predecessors left, whatever
     they answered (a run-time error stays in its place and does not stop the later commands) ... *)
  Theorem C05_run_queue_consecutive : forall (q : list cmd) (s : St) (c : cmd),
    RQ s (q ++ [c]) = (fst (exec (fst (RQ s q)) c), snd (RQ s q) ++ [snd (exec (fst (RQ s q)) c)]).
  Proof. exact run_queue_snoc. Qed.

  (* ... and equals sending the same (ordinary) commands one after the other outside a transaction. *)
  Theorem C05_exec_eq_twin : forall (q : list cmd) (c : core St cmd),
    in_tx _ (txs _ _ c) = false -> Forall (fun x => kind x = KPlain) q ->
    fold_left DISPATCH q c =
    mkCore _ _ (fst (RQ (st _ _ c) q)) (txs _ _ c) (outp _ _ c ++ snd (RQ (st _ _ c) q)).
  Proof. exact run_queue_eq_twin. Qed.

  (* All-or-nothing, the "nothing" half: DISCARD, EXEC after a queue-time error (EXECABORT), EXEC
     after a failed WATCH, nested MULTI and WATCH inside MULTI leave the backend untouched. *)
  Theorem C05_abort_no_effect : forall (c : core St cmd) (cm : cmd),
    in_tx _ (txs _ _ c) = true ->
    (kind cm = KDiscard -> DISPATCH c cm = mkCore _ _ (st _ _ c) (tx_idle cmd) (outp _ _ c ++ [R_OK])) /\
    (kind cm = KExec -> tx_err _ (txs _ _ c) = true ->
       DISPATCH c cm = mkCore _ _ (st _ _ c) (tx_idle cmd) (outp _ _ c ++ [R_EXECABORT])) /\
    (forall s1, kind cm = KExec -> tx_err _ (txs _ _ c) = false ->
       watch_unchanged St cmd exec cmd_get (st _ _ c) (watched _ (txs _ _ c)) = (s1, false) ->
       DISPATCH c cm = mkCore _ _ s1 (tx_idle cmd) (outp _ _ c ++ [RNilArr])) /\
    (kind cm = KMulti -> DISPATCH c cm = mkCore _ _ (st _ _ c) (txs _ _ c) (outp _ _ c ++ [R_NESTED])) /\
    (forall ks, kind cm = KWatch ks ->
       DISPATCH c cm = mkCore _ _ (st _ _ c) (txs _ _ c) (outp _ _ c ++ [R_WATCH_IN_MULTI])).
  Proof.
    intros c cm Ht. repeat split; intros.
    - now apply discard_resets.
    - now apply exec_aborts.
    - now apply exec_watch_failed.
    - now apply nested_multi_rejected.
    - now apply (watch_in_multi_rejected c cm ks).
  Qed.

  (* A queue-time error (a frame the command layer rejects, an unknown command, a channel stub)
     changes nothing but the abort mark; with C05_abort_no_effect: EXECABORT applies nothing. *)
  Theorem C05_queue_time_error_marks : forall (c : core St cmd) (v : resp),
    in_tx _ (txs _ _ c) = true ->
    ((exists e, decode_cmd v = inr e) \/
     (exists cm, decode_cmd v = inl cm /\ (kind cm = KStubChan \/ exists n, kind cm = KUnknown n))) ->
    marked St cmd c (HF c v).
  Proof. exact queue_time_error_marks. Qed.

  Hypothesis get_read_only : forall s k, fst (exec s (cmd_get k)) = s.

  (* WATCH: EXEC answers nil and applies nothing if the GET reply of some watched key differs from
     the reply recorded at WATCH time, and applies everything otherwise. *)
  Theorem C05_watch_iff_get_reply_changed : forall (c : core St cmd) (cm : cmd),
    in_tx _ (txs _ _ c) = true -> tx_err _ (txs _ _ c) = false -> kind cm = KExec ->
    let c' := DISPATCH c cm in
    let s := st _ _ c in
    let q := queue _ (txs _ _ c) in
    ((exists k old, In (k, old) (watched _ (txs _ _ c)) /\ GETR s k <> old) ->
       c' = mkCore _ _ s (tx_idle cmd) (outp _ _ c ++ [RNilArr])) /\
    ((forall k old, In (k, old) (watched _ (txs _ _ c)) -> GETR s k = old) ->
       c' = mkCore _ _ (fst (RQ s q)) (tx_idle cmd) (outp _ _ c ++ [RArr (snd (RQ s q))])).
  Proof. exact (watch_iff_get_reply_changed get_read_only). Qed.

  (* Two clients.  A: WATCH ks; then B does anything; A: MULTI; then A queues commands while B does
     anything, in ANY interleaving; A: EXEC.  The EXEC is decided by comparing, for every watched key,
     the GET reply in the backend state at EXEC with the GET reply in the state at WATCH: some key
     differs - nil, nothing applied; none differs - the queue is applied consecutively from the
     state at EXEC and answered with one result per queued command.  A is idle afterwards. *)
  Theorem C05_watch_multi_exec_two_clients :
    forall (y : sys St cmd) (ks : list (list N)) (vw : resp) (cw : cmd) (vm : resp) (cmu : cmd)
           (ve : resp) (ce : cmd) (sched1 sched2 : list (bool * resp)),
    txa _ _ y = tx_idle cmd ->
    decode_cmd vw = inl cw -> kind cw = KWatch ks ->
    decode_cmd vm = inl cmu -> kind cmu = KMulti ->
    decode_cmd ve = inl ce -> kind ce = KExec ->
    Forall (fun p => fst p = false) sched1 ->
    Forall (fun p => fst p = true -> exists cm, decode_cmd (snd p) = inl cm /\ queueable (kind cm)) sched2 ->
    let y1 := STEP2 y true vw in
    let y2 := RUN2 y1 sched1 in
    let y3 := STEP2 y2 true vm in
    let y4 := RUN2 y3 sched2 in
    let y5 := STEP2 y4 true ve in
    let q := a_cmds cmd decode_cmd sched2 in
    txa _ _ y5 = tx_idle cmd /\
    ((exists k, In k ks /\ GETR (sst _ _ y4) k <> GETR (sst _ _ y) k) ->
       sst _ _ y5 = sst _ _ y4 /\ outa _ _ y5 = outa _ _ y4 ++ [RNilArr]) /\
    ((forall k, In k ks -> GETR (sst _ _ y4) k = GETR (sst _ _ y) k) ->
       sst _ _ y5 = fst (RQ (sst _ _ y4) q) /\ outa _ _ y5 = outa _ _ y4 ++ [RArr (snd (RQ (sst _ _ y4) q))] /\
       length (snd (RQ (sst _ _ y4) q)) = length q).
  Proof. exact (watch_multi_exec_two_clients get_read_only). Qed.

  (* Several WATCH commands.  A: any number of WATCH commands (overlapping key lists, a key named
     again or repeated inside one WATCH) with B doing anything between any two of them; A: MULTI; A
     queues while B does anything; A: EXEC.  [watch_snaps y sched0] lists, per WATCH command and per
     key named, the GET reply AT THAT WATCH; nothing recorded is ever replaced.  EVERY entry counts:
     EXEC is nil and applies nothing iff for some entry - in particular the one of the FIRST WATCH of a
     key - the key's GET reply at EXEC differs from the recorded one; otherwise everything is applied. *)
  Theorem C05_multi_watch_exec_two_clients :
    forall (y : sys St cmd) (vm : resp) (cmu : cmd) (ve : resp) (ce : cmd) (sched0 sched2 : list (bool * resp)),
    txa _ _ y = tx_idle cmd ->
    Forall (fun p => fst p = true -> exists cm ks, decode_cmd (snd p) = inl cm /\ kind cm = KWatch ks) sched0 ->
    decode_cmd vm = inl cmu -> kind cmu = KMulti ->
    decode_cmd ve = inl ce -> kind ce = KExec ->
    Forall (fun p => fst p = true -> exists cm, decode_cmd (snd p) = inl cm /\ queueable (kind cm)) sched2 ->
    let y2 := RUN2 y sched0 in
    let y3 := STEP2 y2 true vm in
    let y4 := RUN2 y3 sched2 in
    let y5 := STEP2 y4 true ve in
    let q := a_cmds cmd decode_cmd sched2 in
    let snaps := watch_snaps St cmd decode_cmd exec kind cmd_get stub_reply y sched0 in
    txa _ _ y5 = tx_idle cmd /\
    ((exists k old, In (k, old) snaps /\ GETR (sst _ _ y4) k <> old) ->
       sst _ _ y5 = sst _ _ y4 /\ outa _ _ y5 = outa _ _ y4 ++ [RNilArr]) /\
    ((forall k old, In (k, old) snaps -> GETR (sst _ _ y4) k = old) ->
       sst _ _ y5 = fst (RQ (sst _ _ y4) q) /\ outa _ _ y5 = outa _ _ y4 ++ [RArr (snd (RQ (sst _ _ y4) q))] /\
       length (snd (RQ (sst _ _ y4) q)) = length q).
  Proof. exact (multi_watch_exec_two_clients get_read_only). Qed.
End Generic.

(* The EXECUTOR-level MULTI / EXEC / WATCH (CommandExecutor::execute with Command::Multi / Exec / ..;
   Model/Conn.v Section ExecutorTx; generic in the executor's ordinary commands [exec_plain], in what WATCH
   stores [read_key] and in the comparison [veqb]).  One client; while a transaction is open every command
   except EXEC / DISCARD / MULTI / WATCH is queued. *)
Section Executor.
  Variable St : Type.
  Variable cmd : Type.
  Variable V : Type.
  Variable exec_plain : St -> cmd -> St * resp.
  Variable kind : cmd -> ckind.
  Variable read_key : St -> list N -> V.
  Variable veqb : V -> V -> bool.
  Notation XSTEP := (x_step St cmd V exec_plain kind read_key veqb).
  Notation XRUN := (x_run St cmd exec_plain kind).

  (* no effect and no result until EXEC *)
  Theorem C05_x_queued_no_effect : forall (x : xstate St cmd V) (c : cmd),
    x_in _ _ _ x = true -> kind c <> KExec -> x_st _ _ _ (fst (XSTEP x c)) = x_st _ _ _ x.
  Proof. exact x_queued_no_effect. Qed.

  Theorem C05_x_queued_reply : forall (x : xstate St cmd V) (c : cmd),
    x_in _ _ _ x = true ->
    kind c <> KExec -> kind c <> KDiscard -> kind c <> KMulti -> (forall ks, kind c <> KWatch ks) ->
    XSTEP x c = (mkX _ _ _ (x_st _ _ _ x) true (x_queue _ _ _ x ++ [c]) (x_watched _ _ _ x), RSimple (str "QUEUED")).
  Proof. exact x_queued_reply. Qed.

  (* EXEC: if the value under some watched key differs from a recorded snapshot, nil and nothing applied;
     otherwise the queue is run consecutively from the present state, one result per queued command;
     either way the transaction state is reset.  DISCARD applies nothing. *)
  Theorem C05_x_exec_all_or_nothing : forall (x : xstate St cmd V) (c : cmd),
    x_in _ _ _ x = true -> kind c = KExec ->
    ((exists k old, In (k, old) (x_watched _ _ _ x) /\ veqb (read_key (x_st _ _ _ x) k) old = false) ->
       XSTEP x c = (mkX _ _ _ (x_st _ _ _ x) false [] [], RNilBulk)) /\
    ((forall k old, In (k, old) (x_watched _ _ _ x) -> veqb (read_key (x_st _ _ _ x) k) old = true) ->
       XSTEP x c = (mkX _ _ _ (fst (XRUN (x_st _ _ _ x) (x_queue _ _ _ x))) false [] [],
                    RArr (snd (XRUN (x_st _ _ _ x) (x_queue _ _ _ x)))) /\
       length (snd (XRUN (x_st _ _ _ x) (x_queue _ _ _ x))) = length (x_queue _ _ _ x)).
  Proof. exact x_exec_nil_iff. Qed.

  Theorem C05_x_discard : forall (x : xstate St cmd V) (c : cmd),
    x_in _ _ _ x = true -> kind c = KDiscard ->
    XSTEP x c = (mkX _ _ _ (x_st _ _ _ x) false [] [], RSimple (str "OK")).
  Proof. exact x_discard. Qed.

  Theorem C05_x_run_consecutive : forall (q : list cmd) (s : St) (c : cmd),
    XRUN s (q ++ [c]) =
    (fst (x_exec1 St cmd exec_plain kind (fst (XRUN s q)) c),
     snd (XRUN s q) ++ [snd (x_exec1 St cmd exec_plain kind (fst (XRUN s q)) c)]).
  Proof. exact x_run_snoc. Qed.

  (* EVERY WATCH instant counts: WATCH records each key it names with its present value, never replaces
     or drops an entry, and an entry survives every command except UNWATCH (outside a transaction) and
     EXEC / DISCARD (inside one) - later WATCHes of the same key included.  With
     C05_x_exec_all_or_nothing: EXEC is nil as soon as the value differs from what ANY WATCH of the key saw
     (a change between two WATCHes, and a change after the last WATCH that restores the first value). *)
  Theorem C05_x_every_watch_counts :
    (forall ks s w k, In k ks -> In (k, read_key s k) (x_watch St V read_key s w ks)) /\
    (forall ks s w k v, In (k, v) w -> In (k, v) (x_watch St V read_key s w ks)) /\
    (forall (x : xstate St cmd V) c k v,
       (x_in _ _ _ x = false -> kind c <> KUnwatch) ->
       (x_in _ _ _ x = true -> kind c <> KExec /\ kind c <> KDiscard) ->
       In (k, v) (x_watched _ _ _ x) -> In (k, v) (x_watched _ _ _ (fst (XSTEP x c)))).
  Proof.
    split; [|split].
    - exact x_watch_fresh.
    - exact x_watch_keeps.
    - exact x_step_keeps_watch.
  Qed.
End Executor.

(* Over a backend with values (the mini backend of the correspondence check): "the GET reply differs"
   is "the value differs" unless the key holds a non-string value at both instants.  So, outside that
   class (which includes every string <-> other-type change): EXEC returns nil and applies nothing
   iff the value of some watched key at EXEC differs from its value at WATCH. *)
Theorem C05_watch_iff_changed_strings :
  forall (y : sys mstate mcmd) (ks : list (list N)) (vw vm ve : resp)
         (sched1 sched2 : list (bool * resp)),
  txa _ _ y = tx_idle mcmd ->
  mdecode vw = inl (CWatch ks) -> mdecode vm = inl CMulti -> mdecode ve = inl CExec ->
  Forall (fun p => fst p = false) sched1 ->
  Forall (fun p => fst p = true -> exists cm, mdecode (snd p) = inl cm /\ queueable (mkind cm)) sched2 ->
  let y4 := mrun2 (mstep2 (mrun2 (mstep2 y true vw) sched1) true vm) sched2 in
  let y5 := mstep2 y4 true ve in
  let q := a_cmds mcmd mdecode sched2 in
  (forall k, In k ks -> nonstring_at_both (sst _ _ y) (sst _ _ y4) k = false) ->
  ((exists k, In k ks /\ value_of (sst _ _ y4) k <> value_of (sst _ _ y) k) ->
     sst _ _ y5 = sst _ _ y4 /\ outa _ _ y5 = outa _ _ y4 ++ [RNilArr]) /\
  ((forall k, In k ks -> value_of (sst _ _ y4) k = value_of (sst _ _ y) k) ->
     sst _ _ y5 = fst (run_queue _ _ mexec (sst _ _ y4) q) /\
     outa _ _ y5 = outa _ _ y4 ++ [RArr (snd (run_queue _ _ mexec (sst _ _ y4) q))] /\
     length (snd (run_queue _ _ mexec (sst _ _ y4) q)) = length q).
Proof. exact mini_watch_iff_changed. Qed.

(* KNOWN FINDING C05-watch-nonstring: inside the class the property is false.  B creates a list k;
   A WATCHes k; B pushes to k; A: MULTI, SET j 1, EXEC.  The value of k differs between WATCH and
   EXEC (it holds a list at both instants), yet EXEC answers [OK] and j is set. *)
Theorem C05_watch_nonstring_refuted :
  let sW := sst _ _ (mrun2 (msys_init m0) (firstn 2 refute_sched)) in
  let sE := sst _ _ (mrun2 (msys_init m0) (firstn 5 refute_sched)) in
  let yF := mrun2 (msys_init m0) refute_sched in
  nonstring_at_both sW sE (b_ "k") = true /\
  value_of sE (b_ "k") <> value_of sW (b_ "k") /\
  last (outa _ _ yF) RNilArr = RArr [RSimple (str "OK")] /\
  value_of (sst _ _ yF) (b_ "j") = Some (VStr (b_ "1")).
Proof.
  (* each run is evaluated once, where it is bound *)
  intros sW sE yF. vm_compute in (value of sW), (value of sE), (value of yF).
  repeat split; try reflexivity. discriminate.
Qed.

(* the hypotheses are satisfiable: GET of the mini backend is read-only *)
Theorem C05_mini_get_read_only : forall (s : mstate) (k : list N), fst (mexec s (CGet k)) = s.
Proof. exact mexec_get_read_only. Qed.

Print Assumptions C05_queued_no_effect.
Print Assumptions C05_queued_reply.
Print Assumptions C05_exec_eq_sequential.
Print Assumptions C05_run_queue_consecutive.
Print Assumptions C05_exec_eq_twin.
Print Assumptions C05_abort_no_effect.
Print Assumptions C05_queue_time_error_marks.
Print Assumptions C05_watch_iff_get_reply_changed.
Print Assumptions C05_watch_multi_exec_two_clients.
Print Assumptions C05_multi_watch_exec_two_clients.
Print Assumptions C05_x_queued_no_effect.
Print Assumptions C05_x_queued_reply.
Print Assumptions C05_x_exec_all_or_nothing.
Print Assumptions C05_x_discard.
Print Assumptions C05_x_run_consecutive.
Print Assumptions C05_x_every_watch_counts.
Print Assumptions C05_watch_iff_changed_strings.
Print Assumptions C05_watch_nonstring_refuted.
Print Assumptions C05_mini_get_read_only.

Local Open Scope string_scope.
(* A concrete transaction.
   A: WATCH k | B: SET k x | A: MULTI, INCR n, LPUSH n a (run-time WRONGTYPE), SET j 1 | EXEC -> nil
   (k changed); then again without B's write -> [1; WRONGTYPE; OK]: the error stays in its place. *)
Example C05_nonvacuous :
  let A (l : list string) := (true, frame (map str l)) in
  let B (l : list string) := (false, frame (map str l)) in
  let body := [A ["MULTI"]; A ["INCR"; "n"]; A ["LPUSH"; "n"; "a"]; A ["SET"; "j"; "1"]; A ["EXEC"]] in
  let y1 := mrun2 (msys_init m0) (app [A ["WATCH"; "k"]; B ["SET"; "k"; "x"]] body) in
  let y2 := mrun2 (msys_init m0) (app [A ["WATCH"; "k"]; B ["GET"; "k"]] body) in
  last (outa _ _ y1) R_OK = RNilArr /\ value_of (sst _ _ y1) (str "j") = None /\
  last (outa _ _ y2) R_OK = RArr [RInt 1; WRONGTYPE; RSimple (str "OK")] /\
  value_of (sst _ _ y2) (str "j") = Some (VStr (str "1")).
Proof.
  intros A B body y1 y2. vm_compute in (value of y1), (value of y2). repeat split; reflexivity.
Qed.
Print Assumptions C05_nonvacuous.

(* A key watched twice with a change by B BETWEEN the two WATCHes (none afterwards): the first snapshot
   decides - EXEC is nil, nothing is applied (y1); the same with the key repeated in a multi-key WATCH
   (y2); with an UNWATCH between the first WATCH and B's write the first snapshot is forgotten and the
   transaction is applied (y3). *)
Example C05_first_watch_decides :
  let A (l : list string) := (true, frame (map str l)) in
  let B (l : list string) := (false, frame (map str l)) in
  let tail := [A ["MULTI"]; A ["SET"; "j"; "1"]; A ["EXEC"]] in
  let y1 := mrun2 (msys_init m0) (app [B ["SET"; "k"; "a"]; A ["WATCH"; "k"]; B ["SET"; "k"; "b"]; A ["WATCH"; "k"]] tail) in
  let y2 := mrun2 (msys_init m0) (app [B ["SET"; "k"; "a"]; A ["WATCH"; "k"]; B ["SET"; "k"; "b"]; A ["WATCH"; "h"; "k"; "k"]] tail) in
  let y3 := mrun2 (msys_init m0) (app [B ["SET"; "k"; "a"]; A ["WATCH"; "k"]; A ["UNWATCH"]; B ["SET"; "k"; "b"]; A ["WATCH"; "k"]] tail) in
  last (outa _ _ y1) R_OK = RNilArr /\ value_of (sst _ _ y1) (str "j") = None /\
  last (outa _ _ y2) R_OK = RNilArr /\ value_of (sst _ _ y2) (str "j") = None /\
  last (outa _ _ y3) R_OK = RArr [RSimple (str "OK")] /\ value_of (sst _ _ y3) (str "j") = Some (VStr (str "1")).
Proof.
  intros A B tail y1 y2 y3. vm_compute in (value of y1), (value of y2), (value of y3). repeat split; reflexivity.
Qed.
Print Assumptions C05_first_watch_decides.

(* Executor level over the mini backend, in the order of the conjuncts: WATCH k | LPUSH k b (a list
   modified in place) | MULTI SET j 1 EXEC -> nil (stored values of every type are compared); WATCH k |
   SET k b | WATCH k | MULTI SET j 1 EXEC -> nil (the first snapshot counts); an empty transaction after a
   failed watch -> nil; back to the first value after a second WATCH -> nil (every WATCH instant counts);
   nothing changed (a GET in between) -> applied, a run-time error staying in its place in the array. *)
Example C05_x_nonvacuous :
  let run (l : list (list string)) :=
    fold_left (fun p c => let '(x, _) := p in
                          match mdecode (frame (map str c)) with
                          | inl cm => mx_step x cm
                          | inr _ => p
                          end) l (x_init _ _ _ m0, R_OK) in
  snd (run [["LPUSH"; "k"; "a"]; ["WATCH"; "k"]; ["LPUSH"; "k"; "b"]; ["MULTI"]; ["SET"; "j"; "1"]; ["EXEC"]]) = RNilBulk /\
  snd (run [["SET"; "k"; "a"]; ["WATCH"; "k"]; ["SET"; "k"; "b"]; ["WATCH"; "k"]; ["MULTI"]; ["SET"; "j"; "1"]; ["EXEC"]]) = RNilBulk /\
  snd (run [["SET"; "k"; "a"]; ["WATCH"; "k"]; ["SET"; "k"; "b"]; ["MULTI"]; ["EXEC"]]) = RNilBulk /\
  snd (run [["SET"; "k"; "a"]; ["WATCH"; "k"]; ["SET"; "k"; "b"]; ["WATCH"; "k"]; ["SET"; "k"; "a"]; ["MULTI"]; ["EXEC"]]) = RNilBulk /\
  snd (run [["SET"; "k"; "a"]; ["WATCH"; "k"]; ["GET"; "k"]; ["MULTI"]; ["INCR"; "k"]; ["SET"; "j"; "1"]; ["EXEC"]])
    = RArr [RError (str "ERR value is not an integer or out of range"); RSimple (str "OK")].
Proof. intros run. repeat split; vm_compute; reflexivity. Qed.
Print Assumptions C05_x_nonvacuous.
