(* C07 — CRDT merge is commutative, associative and idempotent in all it exposes. *)
From stdpp Require Import gmap.
From RV Require Import Lib.Hex Model.Crdt Proofs.CrdtProofs.

Theorem C07_lamport_total_order : forall a b c : stamp,
  stamp_ltb a a = false /\
  (stamp_ltb a b = true -> stamp_ltb b c = true -> stamp_ltb a c = true) /\
  (stamp_ltb a b = true \/ a = b \/ stamp_ltb b a = true).
Proof. intros a b c. exact (conj (stamp_ltb_irrefl a) (conj (stamp_ltb_trans a b c) (stamp_trichotomy a b))). Qed.
Print Assumptions C07_lamport_total_order.

Theorem C07_merge_idem : forall a : rvalue, obs (rv_merge a a) = obs a.
Proof. exact rv_merge_idem. Qed.
Print Assumptions C07_merge_idem.

Theorem C07_merge_comm : forall a b : rvalue,
  Compatible a b -> obs (rv_merge a b) = obs (rv_merge b a).
Proof. intros a b H. exact (f_equal obs (rv_merge_comm a b H)). Qed.
Print Assumptions C07_merge_comm.

Theorem C07_merge_assoc : forall a b c : rvalue,
  ~ MixedKinds a b c ->
  obs (rv_merge a (rv_merge b c)) = obs (rv_merge (rv_merge a b) c).
Proof. intros a b c H. exact (f_equal obs (rv_merge_assoc a b c (not_MixedKinds_SameKind3 a b c H))). Qed.
Print Assumptions C07_merge_assoc.

(* Known finding C07-mixed-assoc: with values of different kinds the fallback
   "later outer stamp wins" is not associative. *)
Theorem C07_merge_assoc_mixed_refuted : exists a b c : rvalue,
  MixedKinds a b c /\ Compatible a b /\ Compatible b c /\ Compatible a c /\
  obs (rv_merge a (rv_merge b c)) <> obs (rv_merge (rv_merge a b) c).
Proof. exact (ex_intro _ wit_a (ex_intro _ wit_b (ex_intro _ wit_c rv_merge_assoc_mixed_witness))). Qed.
Print Assumptions C07_merge_assoc_mixed_refuted.

(* The hypotheses are satisfiable by a non-trivial triple. *)
Example C07_nonvacuous : exists a b c : rvalue,
  ~ MixedKinds a b c /\ Compatible a b /\ rv_merge a b <> a.
Proof. exact (ex_intro _ ex_h1 (ex_intro _ ex_h2 (ex_intro _ ex_h1
  (conj (fun H => H (proj1 ex_hash_triple)) (proj2 ex_hash_triple))))). Qed.
Print Assumptions C07_nonvacuous.
