(* C20 - simulation is reproducible: same seed, same trace, same verdict.  PARTIAL.

   A Gallina function is deterministic by construction, so "same seed => same run" is
   [eq_refl] for any model.  The statement only has content once a hidden input of the Rust
   harness - the per-process (per-map) hash keys that fix the iteration order of a
   HashMap - is an explicit argument, and the theorem says the run does not depend on it.
   That is done for ONE kernel: MultiNodeSimulation::gossip_round / send_deltas /
   deliver_messages (Model/SimKernel.v).  The seed is the draw stream [draw]; the
   iteration order of the k-th routing table is [o k].  For every other harness nothing is
   proved here; the evidence is the two-process differential run of harness/src/bin/c20.rs.

   Statements only; proofs are in Proofs/SimKernelProofs.v. *)
From Coq Require Import List NArith Permutation.
From RV Require Import Model.SimKernel Proofs.SimKernelProofs.
Import ListNotations.
Local Open Scope N_scope.

(* The repaired kernel: for every node semantics, every seed (draw stream), every loss
   predicate, every script of rounds / time advances / partitions / heals, any two iteration
   orders of the routing tables give the same run: same queue, same node states, same number
   of draws consumed, same panic flag.  [step_ok]: a table has one entry per target, which
   is what a HashMap is. *)
Theorem C20_kernel_oracle_independent :
  forall (D NS : Type) (apply_deltas : NS -> list D -> NS) (draw : nat -> N) (lost : N -> bool)
         (o1 o2 : nat -> list (N * list D) -> list (N * list D)) (steps : list (step D)) (s : sim D NS),
  perm_oracle D o1 -> perm_oracle D o2 -> Forall (step_ok D) steps ->
  run D NS apply_deltas draw lost true o1 s steps = run D NS apply_deltas draw lost true o2 s steps.
Proof. exact run_oracle_independent. Qed.
Print Assumptions C20_kernel_oracle_independent.

(* ... namely the run that walks every table in ascending target order. *)
Theorem C20_kernel_canonical :
  forall (D NS : Type) (apply_deltas : NS -> list D -> NS) (draw : nat -> N) (lost : N -> bool)
         (o : nat -> list (N * list D) -> list (N * list D)) (steps : list (step D)) (s : sim D NS),
  perm_oracle D o -> Forall (step_ok D) steps ->
  run D NS apply_deltas draw lost true o s steps =
  run D NS apply_deltas draw lost true (id_oracle D) s steps.
Proof. exact run_canonical. Qed.
Print Assumptions C20_kernel_canonical.

(* The loop before the repair (the "pre-fix" loop, "for (target, deltas) in routing_table") is
   NOT independent of the iteration order: one sender, a table with two targets, first draw
   below the loss threshold - which target loses its message depends on which is visited
   first. *)
Theorem C20_kernel_prefix_refuted :
  exists o1 o2 : nat -> list (N * list N) -> list (N * list N),
    perm_oracle N o1 /\ perm_oracle N o2 /\ Forall (step_ok N) w_steps /\
    run N (list N) w_apply w_draw w_lost false o1 w_init w_steps <>
    run N (list N) w_apply w_draw w_lost false o2 w_init w_steps.
Proof. exact unfixed_oracle_dependent. Qed.
Print Assumptions C20_kernel_prefix_refuted.

(* Broadcast mode never iterates a table: independent of the oracle before and after. *)
Theorem C20_kernel_broadcast_independent :
  forall (D NS : Type) (apply_deltas : NS -> list D -> NS) (draw : nat -> N) (lost : N -> bool)
         (fixed : bool) (o1 o2 : nat -> list (N * list D) -> list (N * list D))
         (steps : list (step D)) (s : sim D NS),
  Forall (broadcast_only D) steps ->
  run D NS apply_deltas draw lost fixed o1 s steps = run D NS apply_deltas draw lost fixed o2 s steps.
Proof. exact run_broadcast_indep. Qed.
Print Assumptions C20_kernel_broadcast_independent.

(* The general fact the argument rests on. *)
Theorem C20_sort_of_permutation :
  forall (D : Type) (l1 l2 : list (N * list D)),
  NoDup (map fst l2) -> Permutation l1 l2 -> sort_by_target D l1 = sort_by_target D l2.
Proof. exact sort_perm_eq. Qed.
Print Assumptions C20_sort_of_permutation.

(* A general fact of the same kind, which the argument does not use. *)
Theorem C20_fold_commuting_step_perm :
  forall (A B : Type) (f : A -> B -> A),
  (forall a x y, f (f a x) y = f (f a y) x) ->
  forall l1 l2, Permutation l1 l2 -> forall a, fold_left f l1 a = fold_left f l2 a.
Proof. exact fold_left_perm_comm. Qed.
Print Assumptions C20_fold_commuting_step_perm.

(* The hypotheses are satisfiable by a non-trivial instance: reversal is an admissible
   iteration order, the witness script is well formed, and through the repaired loop the
   witness scenario of the refutation has one outcome under both orders. *)
Example C20_nonvacuous :
  perm_oracle N w_rev /\ Forall (step_ok N) w_steps /\
  s_nodes (run N (list N) w_apply w_draw w_lost true (id_oracle N) w_init w_steps) = [[]; []; [8]] /\
  s_nodes (run N (list N) w_apply w_draw w_lost true w_rev w_init w_steps) = [[]; []; [8]].
Proof. exact (conj w_rev_perm (conj w_steps_ok fixed_witness_same)). Qed.
Print Assumptions C20_nonvacuous.
