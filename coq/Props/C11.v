(* C11 — recovery returns exactly the merge of everything persisted, idempotently.
   Model: Model/Persist.v (recover, recover_with_wal, recover_prod, apply_recovered).

   An update is a pair (key, value).  [replay us s] merges the updates [us]
   into the node state [s] in list order, exactly as apply_recovered_state does on the key's
   shard (insert if absent, ReplicatedValue::merge otherwise).  The ground truth of a store
   image is not a particular fold but ALL of them: the theorems say that the state built
   from what recovery returns equals, on the observable projection, [replay us ck] for EVERY
   list [us] that has the same elements as the persisted updates - any order, any
   multiplicity - i.e. the per-key join of everything persisted, started from the checkpoint
   state [ck].  [coherent] is C07's side condition, per key: the updates of one key (and the
   checkpoint entry of that key) are of one CRDT kind and pairwise Compatible (no stamp
   used for two different writes - an invariant of replicas whose clocks tick per write,
   C08).  [ck_covers] is the third clause of Manifest::verify_invariants (no listed segment
   at or below the checkpoint's last_segment_id). *)
From stdpp Require Import gmap.
From Coq Require Import NArith.
From RV Require Import Model.Crdt Model.Store Model.Persist.
From RV Require Import Proofs.PersistProofs Proofs.RecoveryProofs.
Local Open Scope N_scope.

(* recover(): the node state after apply_recovered_state is the join of the checkpoint and
   of every update in every listed segment. *)
Theorem C11_recover_complete : forall st rid rec (us : list (list N * rvalue)),
  recover st rid = Some rec -> ck_covers (r_man rec) ->
  (forall p, In p us <-> In p (listed_updates st (r_man rec))) ->
  coherent (map_to_list (ck_state rec) ++ us) ->
  obs_kv (state_of rec) = obs_kv (replay us (ck_state rec)).
Proof. exact recover_complete_lemma. Qed.
Print Assumptions C11_recover_complete.

(* The state depends only on the SET of updates replayed: any order, any duplication. *)
Theorem C11_order_independent : forall (s : gmap (list N) rvalue) (us us' : list (list N * rvalue)),
  (forall p, In p us <-> In p us') -> coherent (map_to_list s ++ us) ->
  obs_kv (replay us s) = obs_kv (replay us' s).
Proof. exact replay_set_determined. Qed.
Print Assumptions C11_order_independent.

(* ... in particular any permutation and any duplication of the segment list. *)
Theorem C11_segment_order_independent : forall (st : gmap name (sobj obj)) segs segs' ds ds' s0,
  load_segs st segs = Some ds -> load_segs st segs' = Some ds' ->
  (forall s, In s segs <-> In s segs') ->
  coherent (map_to_list s0 ++ map upd_of ds) ->
  obs_kv (replay (map upd_of ds) s0) = obs_kv (replay (map upd_of ds') s0).
Proof. exact segment_order_independent_lemma. Qed.
Print Assumptions C11_segment_order_independent.

(* Applying the recovered state a second time to the node changes nothing. *)
Theorem C11_repeat_idempotent : forall rec,
  coherent (map_to_list (ck_state rec) ++ map upd_of (r_deltas rec)) ->
  obs_kv (apply_recovered (r_ck rec) (r_deltas rec) (state_of rec)) = obs_kv (state_of rec).
Proof. exact repeat_idempotent_lemma. Qed.
Print Assumptions C11_repeat_idempotent.

(* The production start-up path (integration.recover, then replay of the whole WAL):
   the join of checkpoint, listed segments and every WAL entry, whatever the stamps. *)
Theorem C11_wal_nothing_dropped : forall st rid rec wl (us : list (list N * rvalue)),
  recover st rid = Some rec -> ck_covers (r_man rec) ->
  (forall p, In p us <-> In p (listed_updates st (r_man rec) ++ wal_updates wl)) ->
  coherent (map_to_list (ck_state rec) ++ us) ->
  exists s, recover_prod st rid wl = Some s /\ obs_kv s = obs_kv (replay us (ck_state rec)).
Proof. exact wal_nothing_dropped_lemma. Qed.
Print Assumptions C11_wal_nothing_dropped.

(* The same for RecoveryManager::recover_with_wal once it replays the whole WAL. *)
Theorem C11_recover_with_wal_complete : forall v st rid rec wl (us : list (list N * rvalue)),
  v_wal_all v = true ->
  recover st rid = Some rec -> ck_covers (r_man rec) ->
  (forall p, In p us <-> In p (listed_updates st (r_man rec) ++ wal_updates wl)) ->
  coherent (map_to_list (ck_state rec) ++ us) ->
  exists rw, recover_with_wal v st rid wl = Some rw /\
             obs_kv (state_of rw) = obs_kv (replay us (ck_state rec)).
Proof. exact recover_with_wal_complete_lemma. Qed.
Print Assumptions C11_recover_with_wal_complete.

(* "No update is dropped", pointwise: the state absorbs every update that was replayed. *)
Theorem C11_every_update_absorbed : forall (s : gmap (list N) rvalue) (us : list (list N * rvalue)) p,
  coherent (map_to_list s ++ us) -> In p us ->
  exists x, replay us s !! p.1 = Some x /\ obs (rv_merge x p.2) = obs x.
Proof. exact update_absorbed_lemma. Qed.
Print Assumptions C11_every_update_absorbed.

(* recover_with_wal as found (fixed: C11-wal-high-water): entries stamped below the segments'
   maximum are filtered out.  One segment written by a fast shard (stamp 10), one WAL entry
   of a slow shard (stamp 3) for another key: the key is absent from the recovered state,
   present with the whole-WAL replay and on the production path. *)
Theorem C11_high_water_refuted :
  match recover_with_wal as_found hw_store 1 hw_wal with
  | Some rw => map sig_of (r_deltas rw) = [(1, 10)] /\ state_of rw !! [2] = None
  | None => False
  end /\
  match recover_with_wal repaired hw_store 1 hw_wal with
  | Some rw => map sig_of (r_deltas rw) = [(1, 10); (2, 3)] /\ state_of rw !! [2] = Some (lwwv 8 3 1)
  | None => False
  end /\
  match recover_prod hw_store 1 hw_wal with
  | Some s => s !! [2] = Some (lwwv 8 3 1)
  | None => False
  end.
Proof. vm_compute. repeat split. Qed.
Print Assumptions C11_high_water_refuted.

(* The hypotheses are satisfiable by a non-trivial layout: a checkpoint, two segments with
   interleaved stamps listed out of stamp order (a far-ahead remote stamp 1000 in the first),
   a duplicated delta, a WAL with an entry below the segments' high-water mark; the list
   [ex_updates] is a shuffled version of the persisted updates with one more duplicate. *)
Example C11_nonvacuous :
  match recover ex_store 1 with
  | Some rec =>
      ck_covers (r_man rec) /\ ck_state rec = ex_ck /\
      map sig_of (r_deltas rec) = [(1, 7); (2, 20); (2, 9); (1, 1000); (2, 20)] /\
      (forall p, In p ex_updates <-> In p (listed_updates ex_store (r_man rec) ++ wal_updates ex_wal)) /\
      coherent (map_to_list (ck_state rec) ++ ex_updates)
  | None => False
  end.
Proof. exact example_recovery. Qed.
Print Assumptions C11_nonvacuous.
