(* C17 - a command that fails changes nothing; a read-only command changes nothing.
   The two laws are proved in Proofs/RedisProofs.v.  Both hold for the reference semantics
   and for the implementation as built (every dialect), for every command of the model
   including the multi-key and two-key ones (MGET MSET MSETNX DEL EXISTS RENAME RENAMENX
   RPOPLPUSH LMOVE) and the commands the grammar rejects.  Equality of states implies equality
   of the visible keyspace and of every TTL at every instant. *)
From stdpp Require Import gmap.
From Coq Require Import ZArith NArith String.
From RV Require Import Lib.Hex Model.Redis Gen.ReadOnly Proofs.RedisProofs.
Local Open Scope Z_scope.

(* A command whose reply is an error leaves the state exactly as it was. *)
Theorem C17_error_no_effect : forall dl s now c,
  is_error (exec dl s now c).2 = true -> (exec dl s now c).1 = s.
Proof. exact error_no_effect_lemma. Qed.
Print Assumptions C17_error_no_effect.

(* A command that the implementation's own table Command::is_read_only (translated into
   Gen/ReadOnly.v on every run) classifies read-only leaves the state exactly as it was. *)
Theorem C17_read_only_no_effect : forall dl s now c,
  ro_impl (tag c) = true -> (exec dl s now c).1 = s.
Proof. exact read_only_no_effect_lemma. Qed.
Print Assumptions C17_read_only_no_effect.

(* The names used by [tag] are variants of the Rust enum Command at the time Gen/ReadOnly.v was
   generated. *)
Theorem C17_tags_are_command_variants : forall c,
  existsb (String.eqb (tag c)) command_variants = true.
Proof. destruct c; vm_compute; reflexivity. Qed.
Print Assumptions C17_tags_are_command_variants.

(* Over whole runs: steps that are errors or read-only can be dropped without changing the
   state that is reached. *)
Theorem C17_skippable_steps : forall dl st c,
  (is_error (exec dl st.1 st.2 c).2 = true \/ ro_impl (tag c) = true) ->
  step dl st (OCmd c) = st.
Proof.
  intros dl [s now] c [H|H]; simpl in *; f_equal.
  - by apply error_no_effect_lemma.
  - by apply read_only_no_effect_lemma.
Qed.
Print Assumptions C17_skippable_steps.

(* The hypotheses are satisfiable: in the state after SET k 10 PX 100; INCR k; RPUSH l a b,
   INCRBY l, RPOPLPUSH l k, LSET l 7 x and INCRBY k i64::MAX are four errors of three kinds;
   LRANGE is classified read-only and LPOP is not. *)
Example C17_nonvacuous :
  let s := (run Redis (firstn 3 ex_ops)).1 in
  (exec Redis s 0 (IncrBy [108%N] 5)).2 = RErr EWrongType /\
  (exec Redis s 0 (RPopLPush [108%N] [107%N])).2 = RErr EWrongType /\
  (exec Redis s 0 (LSet [108%N] 7 [120%N])).2 = RErr EIndexOutOfRange /\
  (exec Redis s 0 (IncrBy [107%N] I64MAX)).2 = RErr EOverflow /\
  ro_impl (tag (LRange [108%N] 0 (-1))) = true /\ ro_impl (tag (LPop [108%N])) = false.
Proof. vm_compute. done. Qed.
Print Assumptions C17_nonvacuous.
