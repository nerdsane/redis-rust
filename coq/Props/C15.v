(* C15 - RESP decoding is total, bounded, prefix-stable; replies re-decode to themselves.

   [parse codec b] is the model of RespCodec::parse (codec = true, the production decoder)
   and of RespParser::parse (codec = false, the simulation decoder) on the byte string b;
   [alloc_request codec b] is the largest single allocation request (bytes) made on the way;
   [encode v] is the model of RespCodec::encode / RespParser::encode.  See Model/Resp.v.
   The only side condition is the length bound 2^62 on inputs (a Rust slice is at most
   isize::MAX = 2^63 - 1 bytes long), needed to exclude usize overflow. *)
From Coq Require Import NArith ZArith List.
From RV Require Import Lib.Hex Model.Resp Proofs.RespProofs.
Import ListNotations.

(* Totality: every byte string gets exactly one of the three legitimate answers; the
   decoders never reach a Rust panic site (slice out of range, usize overflow, capacity
   overflow), and the loop fuel of the model never runs out. *)
Theorem C15_parse_total : forall (codec : bool) (b : list N),
  (Z.of_nat (length b) < 4611686018427387904)%Z ->
  (exists v n, parse codec b = Done v n) \/ parse codec b = Incomplete \/ (exists k, parse codec b = Err k).
Proof. exact parse_total. Qed.
Print Assumptions C15_parse_total.

Theorem C15_parse_no_panic : forall (codec : bool) (b : list N),
  (Z.of_nat (length b) < 4611686018427387904)%Z ->
  parse codec b <> Panic /\ parse codec b <> OutOfFuel.
Proof. intros codec b H. exact (conj (parse_no_panic codec b H) (parse_no_oof codec b)). Qed.
Print Assumptions C15_parse_no_panic.

(* A decoded frame occupies exactly the reported number of bytes: it never over-reads, and
   decoding just those bytes gives the same value. *)
Theorem C15_parse_consumed_exact : forall (codec : bool) (b : list N) (v : resp) (n : nat),
  parse codec b = Done v n ->
  1 <= n <= length b /\ parse codec (firstn n b) = Done v n.
Proof. exact parse_consumed_exact. Qed.
Print Assumptions C15_parse_consumed_exact.

(* Prefix stability: a decided answer does not change when more bytes arrive ... *)
Theorem C15_parse_extension : forall (codec : bool) (b x : list N) (v : resp) (n : nat),
  parse codec b = Done v n -> parse codec (b ++ x) = Done v n.
Proof. exact parse_extension. Qed.
Print Assumptions C15_parse_extension.

Theorem C15_parse_error_stable : forall (codec : bool) (b x : list N) (k : errkind),
  parse codec b = Err k -> parse codec (b ++ x) = Err k.
Proof. exact parse_error_stable. Qed.
Print Assumptions C15_parse_error_stable.

(* ... and every strict prefix of a frame is answered "need more bytes". *)
Theorem C15_parse_prefix_incomplete : forall (codec : bool) (b : list N) (v : resp) (n k : nat),
  (Z.of_nat (length b) < 4611686018427387904)%Z ->
  parse codec b = Done v n -> k < n -> parse codec (firstn k b) = Incomplete.
Proof. exact parse_prefix_incomplete. Qed.
Print Assumptions C15_parse_prefix_incomplete.

(* "Need more bytes" is never a dead end: some continuation takes the decoder out of it. *)
Theorem C15_incomplete_not_stuck : forall (codec : bool) (b : list N),
  parse codec b = Incomplete -> exists x, parse codec (b ++ x) <> Incomplete.
Proof. exact incomplete_not_stuck. Qed.
Print Assumptions C15_incomplete_not_stuck.

(* Feeding a stream in arbitrary fragments yields the same frames (and the same final
   state: bytes left in the buffer, or the protocol error) as feeding it whole. *)
Theorem C15_fragmentation_independent : forall (codec : bool) (frags : list (list N)),
  (Z.of_nat (length (concat frags)) < 4611686018427387904)%Z ->
  feed_all codec frags = decode_stream codec (concat frags).
Proof. exact fragmentation_independent. Qed.
Print Assumptions C15_fragmentation_independent.

(* No allocation is sized by an unvalidated length field: the largest single request is
   at most ELEM_SIZE = 40 bytes per input byte (one pre-allocated array slot per remaining
   input byte; payload copies are bounded by the bytes actually present). *)
Theorem C15_parse_alloc_bounded : forall (codec : bool) (b : list N),
  (alloc_request codec b <= ELEM_SIZE * N.of_nat (length b))%N.
Proof. exact parse_alloc_bounded. Qed.
Print Assumptions C15_parse_alloc_bounded.

(* Every well-formed value (no CR / LF inside simple strings and errors, integers in i64,
   at most MAX_DEPTH = 32 array levels) decodes back to itself, also when followed by
   further replies. *)
Theorem C15_encode_decode : forall (codec : bool) (v : resp) (x : list N),
  wf_resp MAX_DEPTH v = true ->
  (Z.of_nat (length (encode v ++ x)) < 4611686018427387904)%Z ->
  parse codec (encode v ++ x) = Done v (length (encode v)).
Proof. exact encode_decode_app. Qed.
Print Assumptions C15_encode_decode.

(* The production decoder and the simulation decoder decide every input identically. *)
Theorem C15_decoders_agree : forall b : list N, parse true b = parse false b.
Proof. exact decoders_agree. Qed.
Print Assumptions C15_decoders_agree.

(* Recursion is bounded: an array nested deeper than MAX_DEPTH is a protocol error whatever
   follows (the decoders recurse once per level, so the depth of the stack is bounded;
   finding C15-nesting-depth). *)
Theorem C15_nesting_bounded : forall (codec : bool) (inner : list N),
  parse codec (Nat.iter (S MAX_DEPTH) (fun b => 42 :: 49 :: 13 :: 10 :: b)%N inner) = Err ETooDeep.
Proof. exact nesting_bounded. Qed.
Print Assumptions C15_nesting_bounded.

(* The hypotheses are satisfiable by non-trivial instances; the inputs of the findings
   C15-negative-length, C15-prealloc and C15-lone-cr (known_findings.jsonl) are decided,
   and the oversized array header requests no memory. *)
Example C15_nonvacuous :
  let get := [42; 50; 13; 10; 36; 51; 13; 10; 71; 69; 84; 13; 10; 36; 51; 13; 10; 102; 111; 111; 13; 10]%N in
  let v := RArr [RBulk [71; 69; 84]%N; RBulk [102; 111; 111]%N] in
  parse true get = Done v 22 /\ encode v = get /\ wf_resp MAX_DEPTH v = true /\
  parse true (firstn 21 get) = Incomplete /\
  wf_resp MAX_DEPTH (RArr [RInt (-9223372036854775808); RSimple [79; 75]%N; RNilArr; RArr []]) = true.
Proof. vm_compute. repeat split; reflexivity. Qed.
Print Assumptions C15_nonvacuous.

Example C15_repaired_inputs :
  parse true [36; 45; 50; 13; 10]%N = Err ENegLen /\            (* "$-2\r\n": C15-negative-length *)
  parse false [36; 45; 50; 13; 10]%N = Err ENegLen /\
  parse true [42; 45; 50; 13; 10]%N = Err ENegLen /\            (* "*-2\r\n": C15-negative-length *)
  alloc_request true [42; 49; 48; 48; 48; 48; 48; 48; 48; 48; 48; 13; 10]%N = 0%N /\
                                                                (* "*1000000000\r\n": C15-prealloc *)
  parse true [43; 97; 13; 98; 13; 10]%N = Done (RSimple [97; 13; 98]%N) 6 /\
                                                                (* "+a\rb\r\n": C15-lone-cr *)
  parse true [36; 49; 13; 88; 13; 10]%N = Err EBadInt.          (* "$1\rX\r\n": C15-lone-cr *)
Proof. vm_compute. repeat split; reflexivity. Qed.
Print Assumptions C15_repaired_inputs.
