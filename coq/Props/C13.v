(* C13 — compaction never changes what recovery returns.
   Model: Model/Persist.v (compact, recover), Model/CompactSpec.v.

   [compact v c now sz w] is Compactor::compact on the world [w] (store image
   + outcome stream, Model/Store.v; [sz] = size in bytes of the segment it writes);
   [recover] is RecoveryManager::recover; [state_of rec] the node state after
   apply_recovered_state; [obs_kv] the observable projection of C07, [live_kv] drops the keys
   whose value is an LWW tombstone (they read as absent).  [compacted v cutoff A] is what a
   compaction writes for the concatenated contents [A] of its inputs, [dropped v cutoff A]
   the tombstones it leaves out.  [coherent] is C07's side condition per key, [ck_covers] the
   manifest's own invariant (see Props/C11.v).  The variant flags: [v_merge] = the repaired
   compaction (merge per key), [keep_latest] = the repaired code with the compaction as
   found.  [Sem0 rid T st] (in C13_nonvacuous): the hypotheses of C13_compact_preserves hold
   of [st] and recovery for [rid] returns the state [T]. *)
From stdpp Require Import gmap.
From Coq Require Import NArith.
From RV Require Import Model.Crdt Model.Store Model.Persist Model.CompactSpec.
From RV Require Import Proofs.PersistProofs Proofs.RecoveryProofs Proofs.CompactionProofs.
Local Open Scope N_scope.

(* Sequential compaction, every layout (sizes, selection outcome, overlapping stamp ranges,
   several replicas), every outcome stream - i.e. also at every crash instant and under
   every fault placement of the compaction's own store calls: recovery afterwards succeeds
   and yields the same node state.  Tombstone GC inactive (now <= ttl); with GC see
   C13_tombstone_gc_safe. *)
Theorem C13_compact_preserves : forall v (c : ccfg) now sz rid st (io : list outcome) w' r rec,
  v_strict_get v = true -> v_merge v = true -> now <= cc_ttl c ->
  store_ok st -> recover st rid = Some rec -> ck_covers (r_man rec) ->
  coherent (map_to_list (ck_state rec) ++ listed_updates st (r_man rec)) ->
  compact v c now sz (World st io [] false) = (w', r) ->
  exists rec', recover (w_store w') rid = Some rec' /\
               obs_kv (state_of rec') = obs_kv (state_of rec).
Proof.
  intros v c now sz rid st io w' r rec Hs Hm Hn Hok Hr Hc Hco Hcomp.
  refine (proj2 (compact_preserves_lemma v Hs Hm c now rid (obs_kv (state_of rec)) Hn sz _ _ _ Hcomp _)).
  split; [exact Hok|]. exists rec. auto.
Qed.
Print Assumptions C13_compact_preserves.

(* The outcome streams of C13_compact_preserves include reads that arrive damaged (OErr
   EGarble: the get reports success, the bytes fail the segment's checks, the object at rest
   is intact).  Concretely: the damaged input is skipped and stays listed, the other two are
   compacted, recovery returns the same three deltas. *)
Example C13_garbled_read_keeps_input :
  let '(w, r) := compact repaired kl_cc 0 100 (World gb_store gb_io [] false) in
  r = COk [1; 2] (Some 3) /\
  map fst (rev (w_log w)) = [CGet NMan; CGet (NSeg 0); CGet (NSeg 1); CGet (NSeg 2); CPut (NSeg 3);
                             CPut NTmp; CRename NTmp NMan; CDelete (NSeg 1); CDelete (NSeg 2)] /\
  match recover gb_store 1 with
  | Some rec => map sig_of (r_deltas rec) = [(1, 5); (2, 6); (3, 7)] | None => False end /\
  match recover (w_store w) 1 with
  | Some rec => map sig_of (r_deltas rec) = [(1, 5); (2, 6); (3, 7)] | None => False end.
Proof. vm_compute. repeat split. Qed.
Print Assumptions C13_garbled_read_keeps_input.

(* The algebraic core: replaying what the merging compaction wrote in place of what it read
   gives the same node state, wherever recovery places the new segment among the others
   ([us], [us'] = any orderings / multiplicities of old and new contents; [B] = the updates
   of the segments that were not compacted; [s] = the checkpoint state). *)
Theorem C13_compact_content_preserves : forall v (s : gmap (list N) rvalue) (A : list delta)
    (B us us' : list (list N * rvalue)),
  v_merge v = true ->
  (forall p, In p us <-> In p (map upd_of A ++ B)) ->
  (forall p, In p us' <-> In p (map upd_of (compacted v 0 A) ++ B)) ->
  coherent (map_to_list s ++ map upd_of A ++ B) ->
  obs_kv (replay us' s) = obs_kv (replay us s).
Proof. exact compact_content_preserves. Qed.
Print Assumptions C13_compact_content_preserves.

(* Dropping tombstones (any cutoff) is invisible to clients when no update of a dropped
   tombstone's key exists outside the compaction - neither in a segment that was not
   compacted nor in the checkpoint. *)
Theorem C13_tombstone_gc_safe : forall v (s : gmap (list N) rvalue) (A : list delta)
    (B : list (list N * rvalue)) cutoff (us us' : list (list N * rvalue)),
  v_merge v = true ->
  (forall p, In p us <-> In p (map upd_of A ++ B)) ->
  (forall p, In p us' <-> In p (map upd_of (compacted v cutoff A) ++ B)) ->
  coherent (map_to_list s ++ map upd_of A ++ B) ->
  (forall e, In e (dropped v cutoff A) -> s !! d_key e = None /\ forall p, In p B -> p.1 <> d_key e) ->
  obs_kv (live_kv (replay us' s)) = obs_kv (live_kv (replay us s)).
Proof. exact tombstone_gc_safe_lemma. Qed.
Print Assumptions C13_tombstone_gc_safe.

(* Regression (fixed: C13-keep-latest): the compaction as found keeps, per key, the delta with
   the greatest logical time instead of merging.  Two replicas' hash deltas for one key with
   disjoint fields (a coherent layout): two fields before, one after. *)
Theorem C13_keep_latest_refuted :
  coherent [([9], hashv 1 10 5 1); ([9], hashv 2 20 6 2)] /\
  let '(w, r) := compact keep_latest kl_cc 0 100 (World kl_store oks [] false) in
  r = COk [0; 1] (Some 2) /\
  nfields (state_at kl_store) [9] = 2%nat /\ nfields (state_at (w_store w)) [9] = 1%nat.
Proof. split; [exact kl_coherent|]. vm_compute. repeat split. Qed.
Print Assumptions C13_keep_latest_refuted.

(* Known finding C13-tombstone-cutoff: the cutoff now_ms - ttl_ms is compared with logical
   Lamport time.  Production clock, TTL 24 h: a tombstone written 9 logical ticks ago is
   "older than TTL" and dropped; the older live value in a skipped (large) segment comes
   back: the deleted key reads 7 again.  (The safety hypothesis of C13_tombstone_gc_safe
   fails: the key has an update outside the compaction.) *)
Theorem C13_tombstone_cutoff_refuted :
  let '(w, r) := compact repaired tc_cc tc_now 100 (World tc_store oks [] false) in
  r = COk [1; 2] (Some 3) /\
  get_at (state_at tc_store) [1] = None /\ get_at (state_at (w_store w)) [1] = Some [7] /\
  map sig_of (dropped repaired (tc_now - cc_ttl tc_cc) [Delta [1] (tombv 9 1) 1; dlt 2 8 3 1]) = [(1, 9)].
Proof. vm_compute. repeat split. Qed.
Print Assumptions C13_tombstone_cutoff_refuted.

(* Known finding C13-manifest-swap-race: a flush that completes between the compaction's
   manifest load and its manifest save.  Both pick segment id 2; the compaction overwrites
   the flush's segment and writes a manifest from its snapshot: the flush returned Ok, its
   delta (key 3) is not recovered. *)
Theorem C13_interleaving_refuted :
  let '(s1, (w2, r)) := il_run in
  s_res s1 = [RFlush (FOk 1) 0; RPush true] /\ map sig_of (ps_conf (s_p s1)) = [(3, 7)] /\
  map fst (rev (w_log (s_w s1))) = [CGet NMan; CPut (NSeg 2); CPut NTmp; CRename NTmp NMan] /\
  r = COk [0; 1] (Some 2) /\
  map fst (rev (w_log w2)) = [CGet (NSeg 0); CGet (NSeg 1); CPut (NSeg 2); CPut NTmp;
                              CRename NTmp NMan; CDelete (NSeg 0); CDelete (NSeg 1)] /\
  match recover (w_store (s_w s1)) 1 with
  | Some rec => map sig_of (r_deltas rec) = [(1, 5); (2, 6); (3, 7)] | None => False end /\
  match recover (w_store w2) 1 with
  | Some rec => map sig_of (r_deltas rec) = [(1, 5); (2, 6)] | None => False end.
Proof. vm_compute. repeat split. Qed.
Print Assumptions C13_interleaving_refuted.

(* The hypotheses of C13_compact_preserves hold for the two-replica hash layout, and the
   repaired compaction keeps both fields. *)
Example C13_nonvacuous :
  (exists T, Sem0 1 T kl_store /\ nfields T [9] = 2%nat) /\
  let '(w, r) := compact repaired kl_cc 0 100 (World kl_store oks [] false) in
  r = COk [0; 1] (Some 2) /\ nfields (state_at (w_store w)) [9] = 2%nat.
Proof. split; [exact kl_sem0|]. vm_compute. repeat split. Qed.
Print Assumptions C13_nonvacuous.
