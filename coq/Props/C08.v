(* C08 — newest write wins: a node's stamps only grow, also across restart.
   The statements; each is an instance of a lemma of Proofs/ShardStateProofs.v. *)
From stdpp Require Import gmap.
From RV Require Import Lib.Hex Model.Crdt Model.ShardState Proofs.ShardStateProofs.

(* The clock dominates every stamp stored, received, recovered or emitted. *)
Theorem C08_clock_dominates : forall rid causal evs s ds,
  run (shard_init rid causal) evs = (s, ds) ->
  Forall wf_event evs -> sh_ovf s = false ->
  (forall k v, sh_keys s !! k = Some v -> times_le v (sh_time s)) /\
  (forall x, In x (inputs evs ++ ds) -> times_le x (sh_time s)).
Proof.
  intros rid causal evs s ds Hrun Hwf Ho.
  destruct (run_ok evs _ _ _ Hrun (stored_init rid causal _) Hwf Ho) as (HI & _ & _ & _ & Hseen).
  exact (conj HI Hseen).
Qed.
Print Assumptions C08_clock_dominates.

(* A locally issued stamp carries the node's id and is strictly above every stamp in every
   value the incarnation has received, recovered or issued before. *)
Theorem C08_issued_above_seen : forall rid causal pre e s ds s1 d,
  run (shard_init rid causal) pre = (s, ds) ->
  Forall wf_event pre ->
  step s e = (s1, Some d) -> is_write e = true -> sh_ovf s1 = false ->
  st_rid (rv_ts d) = rid /\
  forall x, In x (inputs pre ++ ds) -> exists b, times_le x b /\ (b < st_time (rv_ts d))%N.
Proof. exact issued_above_seen_lemma. Qed.
Print Assumptions C08_issued_above_seen.

(* The write supersedes every value built from stamps the node had seen, on any replica,
   whichever way round the merge is taken. *)
Theorem C08_write_supersedes : forall s k val exp s1 d x,
  step s (EWrite k val exp) = (s1, Some d) -> sh_ovf s1 = false ->
  times_le x (sh_time s) ->
  rv_get (rv_merge x d) = Some val /\ rv_get (rv_merge d x) = Some val /\
  rv_ts (rv_merge x d) = rv_ts d /\ rv_ts (rv_merge d x) = rv_ts d.
Proof. exact write_supersedes_lemma. Qed.
Print Assumptions C08_write_supersedes.

(* Across crash and recovery (checkpoint entries and deltas in any mix), provided what was
   issued before the crash was durable, no stamp repeats or decreases. *)
Theorem C08_no_repeat_across_restart : forall rid causal evs1 s1 ds1 rec evs2 e s2 ds2 s3 d,
  run (shard_init rid causal) evs1 = (s1, ds1) ->
  run (shard_init rid causal) (rec ++ evs2) = (s2, ds2) ->
  Forall wf_event (rec ++ evs2) ->
  (forall d1, In d1 ds1 -> exists r, In r (inputs rec) /\ (st_time (rv_ts d1) <= st_time (rv_ts r))%N) ->
  step s2 e = (s3, Some d) -> is_write e = true -> sh_ovf s3 = false ->
  forall d1, In d1 ds1 -> stamp_ltb (rv_ts d1) (rv_ts d) = true.
Proof. intros rid causal evs1 s1 ds1 rec evs2 e s2 ds2 s3 d _. apply no_repeat_across_restart_lemma. Qed.
Print Assumptions C08_no_repeat_across_restart.

(* Closed system: a node fed well-formed values stores and emits only well-formed values,
   so the hypothesis [wf_event] is an invariant of a cluster of such nodes, not an assumption. *)
Theorem C08_emitted_well_formed : forall rid causal evs s ds,
  run (shard_init rid causal) evs = (s, ds) ->
  Forall wf_event evs -> sh_ovf s = false ->
  (forall k v, sh_keys s !! k = Some v -> wf_value v) /\ Forall wf_value ds.
Proof.
  intros rid causal evs s ds Hrun Hwf Ho.
  exact (run_wf evs _ _ _ Hrun (stored_init rid causal _) (stored_init rid causal _) Hwf Ho).
Qed.
Print Assumptions C08_emitted_well_formed.

(* Known finding C08-clock-overflow: the guard [sh_ovf = false] is needed. *)
Theorem C08_clock_overflow_refuted :
  wf_event ovf_event /\
  let '(s, ds) := run (shard_init 1 false) [ovf_event; EWrite [107%N] [2%N] None] in
  sh_ovf s = true /\ exists d, ds = [d] /\ stamp_ltb (rv_ts d) (Stamp U64MAX 2) = true.
Proof. exact overflow_witness. Qed.
Print Assumptions C08_clock_overflow_refuted.

Example C08_nonvacuous :
  Forall wf_event ex_evs /\
  let '(s, _) := run (shard_init 1 false) ex_evs in
  exists s1 d, step s (EWrite [107%N] [3%N] None) = (s1, Some d) /\ sh_ovf s1 = false /\ rv_ts d = Stamp 13 1.
Proof. exact ex_run_ok. Qed.
Print Assumptions C08_nonvacuous.
