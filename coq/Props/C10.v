(* C10 - WAL recovery yields only intact appended entries; truncation keeps newer ones.
   Only the property statements; proofs are in Proofs/WalProofs.v.  Every theorem is stated for
   an ARBITRARY checksum function [crc] (nothing about CRC-32 is assumed); where detection of
   altered bytes is claimed, the needed inequality of checksums is an explicit hypothesis.
   Format constants come from Gen/Consts.v (regenerated from wal.rs on every run). *)
From Coq Require Import NArith List Permutation Sorted.
From RV Require Import Lib.Hex Lib.Bytes Lib.Crc32 Gen.Consts Model.Wal Proofs.WalProofs.
Import ListNotations.
Local Open Scope N_scope.

(* What was written is what is read: all entry lists, all payloads, all stamps. *)
Theorem C10_read_roundtrip : forall (crc : bytes -> N) seq es,
  seq < U64 -> Forall (wf_entry crc) es ->
  wal_read crc (file_image seq es) = Ok (seq, es).
Proof. exact read_roundtrip. Qed.
Print Assumptions C10_read_roundtrip.

(* Torn tail: for EVERY prefix length k of a file image, reading yields exactly the entries
   that lie wholly inside the prefix - bit-identical, in order, nothing else; a prefix shorter
   than the header is an unreadable file (an error, not a panic).  No assumption on crc. *)
Theorem C10_torn_tail : forall (crc : bytes -> N) seq es (k : nat),
  seq < U64 -> Forall (wf_entry crc) es ->
  let img := file_image seq es in
  ((k < 16)%nat -> wal_read crc (firstn k img) = Err WCorrupt) /\
  ((16 <= k)%nat -> wal_read crc (firstn k img) = Ok (seq, firstn (count_whole es (k - 16)) es)).
Proof. exact torn_tail. Qed.
Print Assumptions C10_torn_tail.

(* Reading arbitrary bytes never panics and never exhausts the loop fuel. *)
Theorem C10_read_total : forall (crc : bytes -> N) img,
  wal_read crc img = Err WCorrupt \/ exists s es, wal_read crc img = Ok (s, es).
Proof. exact wal_read_cases. Qed.
Print Assumptions C10_read_total.

(* Whatever bytes are on disk (any damage whatsoever): every entry that is returned is
   literally there - encoded, contiguous, in order, directly after the 16 header bytes - and
   its stored checksum is the checksum of its data. *)
Theorem C10_recovered_entries_are_on_disk : forall (crc : bytes -> N) img s es,
  Forall byte_lt img -> wal_read crc img = Ok (s, es) ->
  exists hdr tail, img = hdr ++ concat (map encode_entry es) ++ tail /\ lenN hdr = 16 /\
                   Forall (fun e => e_crc e = crc (e_data e)) es.
Proof.
  intros crc img s es Hwf H.
  destruct (wal_read_sound crc img s es Hwf H) as (hdr & tail & E & L & _ & A). exists hdr, tail. auto.
Qed.
Print Assumptions C10_recovered_entries_are_on_disk.

(* The reader stops at the first position that does not decode and returns what precedes it. *)
Theorem C10_damaged_entry_stops : forall (crc : bytes -> N) seq es tail,
  seq < U64 -> Forall (wf_entry crc) es ->
  (tail = [] \/ decode_entry crc tail = Ok None) ->
  wal_read crc (file_header seq ++ concat (map encode_entry es) ++ tail) = Ok (seq, es).
Proof. exact wal_read_stops. Qed.
Print Assumptions C10_damaged_entry_stops.

(* Payload of one entry altered (any bytes of the same length) and the checksum of the new
   bytes differs from the stored one [named hypothesis: no collision for this pair]:
   recovery of the file is exactly the entries before it, whatever follows. *)
Theorem C10_payload_corruption_stops : forall (crc : bytes -> N) seq es1 e data' rest,
  seq < U64 -> Forall (wf_entry crc) es1 -> wf_entry crc e ->
  lenN data' = lenN (e_data e) ->
  crc data' <> e_crc e ->
  wal_read crc (file_header seq ++ concat (map encode_entry es1) ++
                (entry_header (lenN (e_data e)) (e_ts e) (e_crc e) ++ data' ++ rest))
  = Ok (seq, es1).
Proof. exact payload_corruption_stops. Qed.
Print Assumptions C10_payload_corruption_stops.

(* Stored checksum altered: rejected outright (no assumption on crc). *)
Theorem C10_checksum_corruption_stops : forall (crc : bytes -> N) seq es1 e ck' rest,
  seq < U64 -> Forall (wf_entry crc) es1 -> wf_entry crc e -> ck' < U32 -> ck' <> e_crc e ->
  wal_read crc (file_header seq ++ concat (map encode_entry es1) ++
                (entry_header (lenN (e_data e)) (e_ts e) ck' ++ e_data e ++ rest))
  = Ok (seq, es1).
Proof. exact checksum_corruption_stops. Qed.
Print Assumptions C10_checksum_corruption_stops.

(* Length field altered: the entry is re-framed over [body] (everything after its header);
   it is rejected when the bytes run out or when the checksum of the re-framed data differs. *)
Theorem C10_length_corruption_stops : forall (crc : bytes -> N) seq es1 e len' body,
  seq < U64 -> Forall (wf_entry crc) es1 -> wf_entry crc e -> len' < U32 ->
  (lenN body < len' \/ crc (takeN len' body) <> e_crc e) ->
  wal_read crc (file_header seq ++ concat (map encode_entry es1) ++
                (entry_header len' (e_ts e) (e_crc e) ++ body))
  = Ok (seq, es1).
Proof. exact length_corruption_stops. Qed.
Print Assumptions C10_length_corruption_stops.

(* The 16 bytes of the file header: damage there makes the file unreadable or changes nothing
   in the entries read (flags, reserved bytes and the sequence field are not used). *)
Theorem C10_file_header_damage : forall (crc : bytes -> N) h es,
  lenN h = 16 -> Forall (wf_entry crc) es ->
  wal_read crc (h ++ concat (map encode_entry es)) = Err WCorrupt \/
  exists s, wal_read crc (h ++ concat (map encode_entry es)) = Ok (s, es).
Proof. exact file_header_damage. Qed.
Print Assumptions C10_file_header_damage.

(* KNOWN FINDING C10-entry-header-unprotected.  The timestamp field is outside the checksum:
   for every checksum function, an image whose only difference is the stamp of one entry is
   accepted and yields an entry that was never appended. *)
Theorem C10_stamp_corruption_accepted : forall (crc : bytes -> N) seq es1 e es2 ts',
  seq < U64 -> Forall (wf_entry crc) es1 -> wf_entry crc e -> Forall (wf_entry crc) es2 -> ts' < U64 ->
  wal_read crc (file_header seq ++ concat (map encode_entry es1) ++
                (entry_header (lenN (e_data e)) ts' (e_crc e) ++ e_data e) ++
                concat (map encode_entry es2))
  = Ok (seq, es1 ++ set_ts e ts' :: es2).
Proof. exact stamp_corruption_accepted. Qed.
Print Assumptions C10_stamp_corruption_accepted.

(* ... so "recovery returns a prefix of what was appended" is refuted inside the class
   [HeaderFieldDamage] (witness with the real CRC-32: stamp 9 read back as 73). *)
Theorem C10_header_field_refuted : exists seq es img' es',
  HeaderFieldDamage seq es img' /\ wal_read crc32 img' = Ok (seq, es') /\ ~ is_prefix es' es.
Proof.
  exists 1, wit_es, wit_img', [Entry 73 [] 0]. exact header_field_witness.
Qed.
Print Assumptions C10_header_field_refuted.

(* KNOWN FINDING C10-wal-zero-header-is-an-entry.  For every checksum function that maps the empty
   string to 0 (CRC-32 does), a header with length 0 and checksum 0 - in particular sixteen zero
   bytes - is a well-formed empty entry; with the real CRC-32 a header-only file followed by 32
   zero bytes is read as two entries that were never appended. *)
Theorem C10_zero_header_is_an_entry : forall (crc : bytes -> N), crc [] = 0 ->
  forall ts rest, ts < U64 ->
  decode_entry crc (entry_header 0 ts 0 ++ rest) = Ok (Some (Entry ts [] 0, 16)).
Proof. intros crc H0 ts rest Hts. exact (decode_empty_header crc ts rest Hts H0). Qed.
Print Assumptions C10_zero_header_is_an_entry.

Example C10_zero_tail_read_as_entries :
  wal_read crc32 (file_image 1 [] ++ repeat 0 32) = Ok (1, [Entry 0 [] 0; Entry 0 [] 0]).
Proof. exact zero_tail_witness. Qed.
Print Assumptions C10_zero_tail_read_as_entries.

(* recover_all_entries = concatenation, in sequence order (stable), of each file's own result *)
Theorem C10_recover_all_in_sequence_order : forall (crc : bytes -> N) st,
  recover_all crc st = Ok (concat (map (contrib crc) (sorted_files st))) /\
  Permutation (sorted_files st) (wal_files st) /\
  Sorted key_le (sorted_files st).
Proof.
  intros crc st. exact (conj (recover_all_eq crc st) (conj (sort_perm _) (StronglySorted_Sorted (sort_sorted _)))).
Qed.
Print Assumptions C10_recover_all_in_sequence_order.

(* Independence of files: replacing the bytes of one file by ANY bytes changes only that file's
   block; what precedes and what follows it in the result is the same for every content. *)
Theorem C10_files_independent : forall (crc : bytes -> N) st1 name st2,
  exists pre post, forall img,
    recover_all crc (st1 ++ (name, img) :: st2) =
    Ok (pre ++ (match parse_wal_sequence name with Some _ => file_entries crc img | None => [] end) ++ post).
Proof. exact files_independent. Qed.
Print Assumptions C10_files_independent.

(* A damaged file never hides another file: every file whose name parses contributes all of
   its own entries as one block, whatever the rest of the directory contains. *)
Theorem C10_contribution_present : forall (crc : bytes -> N) st n img s,
  In (n, img) st -> parse_wal_sequence n = Some s ->
  exists pre post, recover_all crc st = Ok (pre ++ file_entries crc img ++ post).
Proof. exact contribution_present. Qed.
Print Assumptions C10_contribution_present.

(* truncate_before, for every directory (names distinct), every stamp layout, every threshold,
   with or without an active writer, and whichever delete calls fail: never panics, only
   removes files, never removes the active file, and every entry stamped later than T that was
   recoverable before is recoverable after. *)
Theorem C10_truncate_safe : forall (crc : bytes -> N) st active T dfail st' r,
  NoDup (map fst st) -> truncate_before crc st active T dfail = (st', r) ->
  r <> Panic /\
  (forall f, In f st' -> In f st) /\
  (forall a img, active = Some a -> In (wal_file_name a, img) st -> In (wal_file_name a, img) st') /\
  exists l l', recover_all crc st = Ok l /\ recover_all crc st' = Ok l' /\
               (forall e, In e l -> T < e_ts e -> In e l').
Proof. exact truncate_safe. Qed.
Print Assumptions C10_truncate_safe.

(* Exact form: the sub-list of entries stamped later than T is the same before and after
   (same entries, same order, same multiplicity). *)
Theorem C10_truncate_exact : forall (crc : bytes -> N) st active T dfail st' r,
  NoDup (map fst st) -> truncate_before crc st active T dfail = (st', r) ->
  exists l l', recover_all crc st = Ok l /\ recover_all crc st' = Ok l' /\
    filter (fun e => T <? e_ts e) l' = filter (fun e => T <? e_ts e) l.
Proof. exact truncate_exact. Qed.
Print Assumptions C10_truncate_exact.

(* The hypotheses are satisfiable: concrete well-formed entries under the real CRC-32. *)
Example C10_nonvacuous :
  Forall (wf_entry crc32) [mk_entry crc32 9 [1; 2; 3]; mk_entry crc32 4 []; mk_entry crc32 7 [255]].
Proof. exact wf_example. Qed.
Print Assumptions C10_nonvacuous.
