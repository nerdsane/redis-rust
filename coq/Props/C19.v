(* C19 - Key placement is a function of membership; selective gossip reaches every owner.
   This file holds only the property statements; the proofs live in Proofs/RingProofs.v, for
   any ring with [ring_inv], and are taken here at the rings the API can produce.

   Every statement is for an ARBITRARY position function of virtual nodes [vpos] and of
   keys [kpos] (the code uses SipHash-1-3: Ring.sip_vpos / Ring.sip_kpos), for every ring
   the API can produce ([run vpos (ring_empty vn rf) ops] for any list of add_node /
   remove_node calls, or [ring_new]), every key position, every rf, and every index [o]
   the binary search may return among equal positions. *)
From Coq Require Import NArith List Bool Sorting.Permutation.
From RV Require Import Lib.Hex Lib.SipHash Model.Ring Proofs.RingProofs.
Import ListNotations.
Local Open Scope bool_scope.
Local Open Scope N_scope.

(* Two rings built by HashRing::new from two join orders of the same members are equal as
   ring vectors and answer every replica query identically. *)
Theorem C19_ring_perm : forall vpos (ns1 ns2 : list N) (vn rf : N),
  Permutation ns1 ns2 -> NoDup ns1 -> positions_distinct vpos ns1 vn ->
  r_ring (ring_new vpos ns1 vn rf) = r_ring (ring_new vpos ns2 vn rf) /\
  forall kp rf' o1 o2,
    replicas_at (ring_new vpos ns1 vn rf) kp rf' o1 = replicas_at (ring_new vpos ns2 vn rf) kp rf' o2.
Proof. exact ring_perm. Qed.
Print Assumptions C19_ring_perm.

(* The same for arbitrary histories of joins and leaves: whatever sequences of add_node /
   remove_node two nodes went through, if they end with the same membership set they hold
   the same ring and compute the same ordered replica list for every key and rf. *)
Theorem C19_placement_function_of_membership : forall vpos (vn rf1 rf2 : N) (ops1 ops2 : list op),
  let R1 := run vpos (ring_empty vn rf1) ops1 in
  let R2 := run vpos (ring_empty vn rf2) ops2 in
  Permutation (r_nodes R1) (r_nodes R2) ->
  positions_distinct vpos (r_nodes R1) vn ->
  r_ring R1 = r_ring R2 /\
  forall kp rf o1 o2, replicas_at R1 kp rf o1 = replicas_at R2 kp rf o2.
Proof.
  intros vpos vn rf1 rf2 ops1 ops2 R1 R2 Hp Hd.
  rewrite <- (reachable_vn vpos vn rf1 ops1) in Hd.
  apply (placement_function_of_membership vpos);
    [apply reachable_inv | apply reachable_inv | | exact Hp | exact Hd].
  unfold R1, R2. rewrite !reachable_vn. reflexivity.
Qed.
Print Assumptions C19_placement_function_of_membership.

(* With pairwise distinct positions the index returned by binary_search is unique, so the
   replica list does not depend on the unspecified choice among equal elements. *)
Theorem C19_search_choice_irrelevant : forall vpos (vn rf0 : N) (ops : list op) kp rf o,
  let R := run vpos (ring_empty vn rf0) ops in
  positions_distinct vpos (r_nodes R) vn ->
  replicas_at R kp rf o = replicas_at R kp rf 0.
Proof.
  intros vpos vn rf0 ops kp rf o R Hd. rewrite <- (reachable_vn vpos vn rf0 ops) in Hd.
  apply (placement_function_of_membership vpos R R);
    [apply reachable_inv | apply reachable_inv | reflexivity | reflexivity | exact Hd].
Qed.
Print Assumptions C19_search_choice_irrelevant.

(* The replica list has exactly min(rf, cluster size) distinct members. *)
Theorem C19_replicas_shape : forall vpos (vn rf0 : N) (ops : list op) kp rf o,
  let R := run vpos (ring_empty vn rf0) ops in
  let l := replicas_at R kp rf o in
  NoDup l /\ incl l (r_nodes R) /\
  (0 < vn -> length l = Nat.min (N.to_nat rf) (length (r_nodes R))).
Proof.
  intros vpos vn rf0 ops kp rf o R l. rewrite <- (reachable_vn vpos vn rf0 ops) at 1.
  apply (replicas_shape vpos), reachable_inv.
Qed.
Print Assumptions C19_replicas_shape.

(* A node x joins: the replica list of a key changes only if x is in the new list. *)
Theorem C19_minimal_disruption_add : forall vpos (vn rf0 : N) (ops : list op) x kp rf o1 o2,
  let R := run vpos (ring_empty vn rf0) ops in
  ~ In x (r_nodes R) ->
  positions_distinct vpos (x :: r_nodes R) vn ->
  ~ In x (replicas_at (add_node vpos R x) kp rf o1) ->
  replicas_at (add_node vpos R x) kp rf o1 = replicas_at R kp rf o2.
Proof.
  intros vpos vn rf0 ops x kp rf o1 o2 R _. rewrite <- (reachable_vn vpos vn rf0 ops).
  apply (minimal_disruption_add vpos), reachable_inv.
Qed.
Print Assumptions C19_minimal_disruption_add.

(* A node x leaves: the replica list of a key changes only if x was in the old list. *)
Theorem C19_minimal_disruption_remove : forall vpos (vn rf0 : N) (ops : list op) x kp rf o1 o2,
  let R := run vpos (ring_empty vn rf0) ops in
  positions_distinct vpos (r_nodes R) vn ->
  ~ In x (replicas_at R kp rf o1) ->
  replicas_at (remove_node R x) kp rf o2 = replicas_at R kp rf o1.
Proof.
  intros vpos vn rf0 ops x kp rf o1 o2 R. rewrite <- (reachable_vn vpos vn rf0 ops).
  apply (minimal_disruption_remove vpos), reachable_inv.
Qed.
Print Assumptions C19_minimal_disruption_remove.

(* For a router that knows an address for every other member: what target t is handed is
   exactly the sub-list of the batch (order and multiplicity kept) of deltas whose replica
   list contains t - nothing if t is the sender; and the table has an entry for t exactly
   when that list is non-empty. *)
Theorem C19_selective_exact : forall vpos kpos (vn rf0 : N) (ops : list op) me peers sel os deltas,
  let r := Router (run vpos (ring_empty vn rf0) ops) me peers sel in
  knows_members r ->
  (forall t, deliveries (route_selective kpos r os deltas) t = owed kpos r os deltas t) /\
  (forall t ds, In (t, ds) (route_selective kpos r os deltas) <->
                ds = owed kpos r os deltas t /\ ds <> []).
Proof.
  intros vpos kpos vn rf0 ops me peers sel os deltas r HK.
  pose proof (reachable_inv vpos vn rf0 ops) as HI.
  split; intros; [apply (selective_exact vpos) | apply (selective_table_entries vpos)]; assumption.
Qed.
Print Assumptions C19_selective_exact.

(* GossipState::queue_deltas in selective mode appends, per call and for any iteration
   order [ord] of the routing HashMap: one targeted message per node that is owed
   something, carrying exactly what it is owed, and nothing else (queue below capacity). *)
Theorem C19_queue_deltas_covers : forall vpos kpos (vn rf0 : N) (ops : list op) me peers ord os g deltas,
  let r := Router (run vpos (ring_empty vn rf0) ops) me peers true in
  g_router g = Some r -> deltas <> [] -> knows_members r ->
  Permutation (ord (route_selective kpos r os deltas)) (route_selective kpos r os deltas) ->
  N.of_nat (length (g_queue g)) + N.of_nat (length (route_selective kpos r os deltas)) <= MAX_OUTBOUND_QUEUE ->
  exists msgs,
    g_queue (queue_deltas kpos ord os g deltas) = g_queue g ++ msgs /\
    NoDup (map fst msgs) /\
    forall m, In m msgs <->
              exists t, m = (Some t, TargetedDelta (g_id g) t (owed kpos r os deltas t) (g_epoch g)) /\
                        owed kpos r os deltas t <> [].
Proof.
  intros vpos kpos vn rf0 ops me peers ord os g deltas r Hr Hne HK.
  exact (queue_deltas_covers vpos kpos ord os g r deltas Hr eq_refl Hne (reachable_inv vpos vn rf0 ops) HK).
Qed.
Print Assumptions C19_queue_deltas_covers.

(* No owner is starved of an update. *)
Theorem C19_no_owner_starved : forall vpos kpos (vn rf0 : N) (ops : list op) me peers ord os g deltas d t,
  let r := Router (run vpos (ring_empty vn rf0) ops) me peers true in
  g_router g = Some r -> knows_members r ->
  Permutation (ord (route_selective kpos r os deltas)) (route_selective kpos r os deltas) ->
  N.of_nat (length (g_queue g)) + N.of_nat (length (route_selective kpos r os deltas)) <= MAX_OUTBOUND_QUEUE ->
  In d deltas -> In t (get_replicas kpos (gr_ring r) (d_key d) (os (kpos (d_key d)))) -> t <> me ->
  exists ds, In (Some t, TargetedDelta (g_id g) t ds (g_epoch g)) (g_queue (queue_deltas kpos ord os g deltas)) /\
             In d ds.
Proof.
  intros vpos kpos vn rf0 ops me peers ord os g deltas d t r Hr HK.
  exact (queue_deltas_no_starvation vpos kpos ord os g r deltas d t Hr eq_refl
           (reachable_inv vpos vn rf0 ops) HK).
Qed.
Print Assumptions C19_no_owner_starved.

(* Routing reads a delta's key only.  Rewriting the other fields of the deltas (payload,
   source_replica = the replica an update originated on) with any function that keeps keys
   rewrites the routed copies and changes nothing else: the node left out of a delta's
   targets is the SENDER, never the origin, so relayed deltas reach their origin too. *)
Theorem C19_route_independent_of_origin : forall kpos (g : list N * (N * N) -> list N * (N * N)) r os deltas,
  (forall d, d_key (g d) = d_key d) ->
  route_selective kpos r os (map g deltas) =
  map (fun p => (fst p, map g (snd p))) (route_selective kpos r os deltas).
Proof. exact route_independent_of_origin. Qed.
Print Assumptions C19_route_independent_of_origin.

(* Broadcast mode: every known peer other than self gets the whole batch. *)
Theorem C19_broadcast_exact : forall (r : router) deltas t,
  deliveries (route_broadcast r deltas) t =
  if has_peer r t && negb (t =? gr_me r) then deltas else [].
Proof. exact route_broadcast_deliveries. Qed.
Print Assumptions C19_broadcast_exact.

(* GossipRouter::from_config.  (Before /repo commit c7b807a the arithmetic was off by one:
   member 1 of 3 filed its peers under {1,3}; found by this check, see known_findings.jsonl.)
   The i-th configured address is filed under [peer_id_of rid i]; for 1-based ids - member
   rid of the cluster 1..n, n = npeers + 1 - these are exactly the other members' ids, in
   increasing order. *)
Theorem C19_from_config_ids : forall rid npeers,
  from_config_peers rid npeers = map (fun i => (peer_id_of rid i, i)) (nseq npeers) /\
  (forall i j, i < j -> peer_id_of rid i < peer_id_of rid j) /\
  (1 <= rid <= npeers + 1 ->
   forall t, In t (map fst (from_config_peers rid npeers)) <-> 1 <= t <= npeers + 1 /\ t <> rid).
Proof.
  exact (fun rid npeers => conj (from_config_peers_eq rid npeers)
          (conj (peer_id_of_mono rid) (fun H t => from_config_ids rid npeers t H))).
Qed.
Print Assumptions C19_from_config_ids.

(* Hence a router made by from_config for member rid, over a ring holding members of 1..n,
   knows every other member, and its selective routing is exact. *)
Theorem C19_from_config_exact : forall vpos kpos (vn rf0 : N) (ops : list op) rid npeers sel part en os deltas,
  let R := run vpos (ring_empty vn rf0) ops in
  let r := from_config rid npeers sel part en R in
  1 <= rid <= npeers + 1 ->
  (forall x, In x (r_nodes R) -> 1 <= x <= npeers + 1) ->
  knows_members r /\
  forall t, deliveries (route_selective kpos r os deltas) t = owed kpos r os deltas t.
Proof.
  intros vpos kpos vn rf0 ops rid npeers sel part en os deltas R r Hr HR.
  assert (HK : knows_members r) by (apply from_config_knows_members; assumption).
  split; [exact HK|]. intro t. apply (selective_exact vpos); [apply reachable_inv | exact HK].
Qed.
Print Assumptions C19_from_config_exact.

(* The hypotheses are satisfiable, the statements are not vacuous.  The code's SipHash
   positions of {1,2,3} + joining node 4 (4 vnodes each) are pairwise distinct; when 4 joins,
   key "k0" moves (and gains 4) while key "k1" stays. *)
Example C19_nonvacuous :
  positions_distinct sip_vpos [4; 1; 2; 3] 4 /\
  get_replicas sip_kpos ex_R3 ex_k0 0 = [2; 1] /\
  get_replicas sip_kpos (add_node sip_vpos ex_R3 4) ex_k0 0 = [4; 2] /\
  get_replicas sip_kpos ex_R3 ex_k1 0 = [3; 2] /\
  get_replicas sip_kpos (add_node sip_vpos ex_R3 4) ex_k1 0 = [3; 2].
Proof. exact (conj ex_positions_distinct ex_disruption). Qed.
Print Assumptions C19_nonvacuous.

(* Remark: the distinctness hypothesis is needed - if two virtual nodes collide on the ring,
   the stable sort keeps them in join order and placement depends on the join order. *)
Example C19_tie_depends_on_join_order :
  let collide := fun _ _ : N => 7 in
  replicas_at (ring_new collide [1; 2] 1 1) 0 1 0 = [1] /\
  replicas_at (ring_new collide [2; 1] 1 1) 0 1 0 = [2].
Proof. exact tie_depends_on_join_order. Qed.
Print Assumptions C19_tie_depends_on_join_order.
