(* C06 — replicas converge: once updates are delivered, all replicas answer reads alike.
   Statements only; proofs are in Proofs/ClusterProofs.v and SemilatticeFold.v (algebra, C06_sec),
   UniqueStamps.v, ServeProofs.v, ClosedSec.v (closed system) and RestartProofs.v (restarts). *)
From stdpp Require Import gmap.
From RV Require Import Lib.Hex Model.Crdt Model.ShardState Model.Cluster Proofs.ShardStateProofs
  Proofs.SemilatticeFold Proofs.ClusterProofs Proofs.ServeProofs Proofs.UniqueStamps Proofs.ClosedSec
  Proofs.RestartProofs.

(* Strong eventual consistency, algebraic core: on a class closed under an associative,
   commutative, idempotent merge, folding two sequences with the same SET of elements (any
   order, any repetition) gives the same result. *)
Theorem C06_fold_depends_only_on_set :
  forall (A : Type) (f : A -> A -> A) (C : A -> Prop),
  (forall a b, C a -> C b -> C (f a b)) -> (forall a, C a -> f a a = a) ->
  (forall a b, C a -> C b -> f a b = f b a) ->
  (forall a b c, C a -> C b -> C c -> f a (f b c) = f (f a b) c) ->
  forall x xs y ys, Forall C (x :: xs) -> Forall C (y :: ys) ->
  (forall e, In e (x :: xs) <-> In e (y :: ys)) ->
  fold_left f xs x = fold_left f ys y.
Proof. intros A f C H1 H2 H3 H4. exact (fold_set_eq f C H1 H2 H3 H4). Qed.
Print Assumptions C06_fold_depends_only_on_set.

(* A local operation (SET/DEL/HSET/HDEL as recorded by the shard) leaves exactly the state
   that merging its own delta would leave: the writer is just one more replica of its update. *)
Theorem C06_local_is_merge : forall s e s1 d v,
  sh_causal s = false -> Inv s -> Inv2 s ->
  sh_keys s !! ev_key e = Some v -> plain v -> rv_merge v v = v ->
  is_local e = true ->
  step s e = (s1, Some d) -> sh_ovf s1 = false ->
  rv_merge v d = d /\ plain d.
Proof. exact local_is_merge. Qed.
Print Assumptions C06_local_is_merge.

(* Convergence of the cluster: for every run (client commands at any nodes, any deltas
   delivered to any nodes in any order, any number of times - i.e. every delay, reordering,
   duplication, loss-then-redelivery and partition-then-heal), if the deltas in play are
   "good" (per key one CRDT kind, string or hash; unique stamps; no expiry / vector clock;
   inner stamps <= outer stamp) and no clock overflowed, then two nodes that have incorporated
   the same SET of deltas for a key hold the same replicated value for it - in particular all
   nodes agree once every delta has reached every node, including the node that wrote it. *)
Theorem C06_sec : forall (U : stamp -> option lww) (K : list N -> N),
  (forall k, K k = 0%N \/ K k = 5%N) ->
  forall n evs c log i j ni nj k,
  crun (cluster_init n) [] evs = (c, log) -> final_ok U K c ->
  c !! i = Some ni -> c !! j = Some nj ->
  same_set (hist_of ni k) (hist_of nj k) ->
  sh_keys (n_sh ni) !! k = sh_keys (n_sh nj) !! k.
Proof. exact sec_lemma. Qed.
Print Assumptions C06_sec.

(* Every register stamp is used at most once in a cluster (the cluster-level form of C08): in
   every run whose deliveries are of previously emitted deltas and in which no clock
   overflowed, two registers occurring in emitted deltas with equal stamps are equal. *)
Theorem C06_unique_stamps : forall n evs,
  deliveries_from_log (cluster_init n) [] evs ->
  no_ovf (crun (cluster_init n) [] evs).1 ->
  forall r r', log_reg (crun (cluster_init n) [] evs).2 r -> log_reg (crun (cluster_init n) [] evs).2 r' ->
  lw_ts r = lw_ts r' -> r = r'.
Proof.
  intros n evs Hd Hno.
  exact (g_unique (crun_ginv evs _ _ (GInv_init n) Hd Hno)).
Qed.
Print Assumptions C06_unique_stamps.

(* Convergence, closed system: the hypotheses are about the client inputs only (each key is
   used with commands of one kind: strings SET [NX|XX] / APPEND / DEL, hashes HSET / HDEL),
   the network (it delivers only deltas that were emitted, any number of times, in any order,
   to anybody) and the absence of clock overflow.  Uniqueness of stamps, well-formedness,
   kind and plainness of the deltas are all derived. *)
Theorem C06_sec_closed : forall (K : list N -> N),
  (forall k, K k = 0%N \/ K k = 5%N) ->
  forall n evs i j ni nj k,
  valid_run K (cluster_init n) [] evs ->
  let c := (crun (cluster_init n) [] evs).1 in
  no_ovf c -> c !! i = Some ni -> c !! j = Some nj ->
  same_set (hist_of ni k) (hist_of nj k) ->
  sh_keys (n_sh ni) !! k = sh_keys (n_sh nj) !! k.
Proof. exact sec_closed_lemma. Qed.
Print Assumptions C06_sec_closed.

(* The agreed value of a string key is the register of the delta carrying the greatest
   (logical time, replica id) stamp among those incorporated. *)
Theorem C06_lww_winner : forall (U : stamp -> option lww) l v,
  Forall (in_class U 0) l -> fold_merge l = Some v ->
  exists r, reg_of v = Some r /\ (exists d, In d l /\ reg_of d = Some r) /\
       forall d r', In d l -> reg_of d = Some r' -> stamp_ltb (lw_ts r) (lw_ts r') = false.
Proof. exact lww_winner_lemma. Qed.
Print Assumptions C06_lww_winner.

(* What a replica serves to clients equals what its replication state says - closed system:
   along EVERY run of the cluster in which client commands keep each key to one kind (string
   keys: SET [NX|XX] / APPEND / DEL; hash keys: HSET / HDEL) and every delivered delta was
   emitted earlier by some node for that key, at every node and for every key the executor's
   answer is the materialisation of the replication state, and no remote hash is ever refused. *)
Theorem C06_serve_eq_state : forall (K : list N -> N) n evs,
  valid_run K (cluster_init n) [] evs ->
  let c := (crun (cluster_init n) [] evs).1 in
  forall i ni, c !! i = Some ni ->
    (forall k, serve ni k = state_says ni k) /\ n_glue_fail ni = false.
Proof. exact serve_eq_state_lemma. Qed.
Print Assumptions C06_serve_eq_state.

Example C06_serve_nonvacuous : valid_run ex_K (cluster_init 3) [] ex_serve_evs.
Proof. exact ex_serve_valid. Qed.
Print Assumptions C06_serve_nonvacuous.

(* [rrun] extends the runs with RRestart i: node i loses its executor, its replication state
   and its clock, and replays the deltas it emitted itself (WAL replay through
   apply_remote_deltas); what it had received comes back through ordinary deliveries.  A
   restart makes a node's clock go back, so "no overflow" is assumed of every step. *)

(* Convergence, closed system, with restarts: two nodes that have incorporated the same SET of
   deltas for a key hold the same replicated value for it, whatever crashed in between. *)
Theorem C06_sec_closed_restart : forall (K : list N -> N),
  (forall k, K k = 0%N \/ K k = 5%N) ->
  forall n evs i j ni nj k,
  valid_rrun K (cluster_init n) [] evs -> rrun_no_ovf (cluster_init n) [] evs ->
  let c := (rrun (cluster_init n) [] evs).1 in
  c !! i = Some ni -> c !! j = Some nj ->
  same_set (hist_of ni k) (hist_of nj k) ->
  sh_keys (n_sh ni) !! k = sh_keys (n_sh nj) !! k.
Proof. exact sec_closed_restart_lemma. Qed.
Print Assumptions C06_sec_closed_restart.

(* Stamps stay unique across crashes: no register stamp is ever issued twice in a cluster,
   also by a node that restarted with its clock at zero ... *)
Theorem C06_unique_stamps_restart : forall (K : list N -> N) n evs,
  valid_rrun K (cluster_init n) [] evs -> rrun_no_ovf (cluster_init n) [] evs ->
  let log := (rrun (cluster_init n) [] evs).2 in
  forall r r', log_reg log r -> log_reg log r' -> lw_ts r = lw_ts r' -> r = r'.
Proof. exact unique_stamps_restart_lemma. Qed.
Print Assumptions C06_unique_stamps_restart.

(* ... because the replay of its own deltas brings its clock past every stamp that carries its
   id, wherever in the cluster that stamp lives by now. *)
Theorem C06_restart_clock : forall (K : list N -> N) n evs i ni,
  valid_rrun K (cluster_init n) [] evs -> rrun_no_ovf (cluster_init n) [] evs ->
  (rrun (cluster_init n) [] evs).1 !! i = Some ni ->
  forall r, log_reg (rrun (cluster_init n) [] evs).2 r -> st_rid (lw_ts r) = N.of_nat (S i) ->
  (st_time (lw_ts r) <= sh_time (n_sh ni))%N.
Proof. exact restart_clock_lemma. Qed.
Print Assumptions C06_restart_clock.

(* What a node serves is what its replication state says, also after restarts. *)
Theorem C06_serve_eq_state_restart : forall (K : list N -> N) n evs,
  valid_rrun K (cluster_init n) [] evs -> rrun_no_ovf (cluster_init n) [] evs ->
  let c := (rrun (cluster_init n) [] evs).1 in
  forall i ni, c !! i = Some ni ->
    (forall k, serve ni k = state_says ni k) /\ n_glue_fail ni = false.
Proof. intros K n evs Hv _. exact (serve_eq_state_restart_lemma K n evs Hv). Qed.
Print Assumptions C06_serve_eq_state_restart.

(* Non-vacuity: a run in which two nodes write, crash, restart and write again satisfies the
   hypotheses, and the stamps each node issues keep growing across its restart. *)
Example C06_restart_nonvacuous :
  (valid_rrun ex_K (cluster_init 3) [] ex_restart_evs /\ rrun_no_ovf (cluster_init 3) [] ex_restart_evs) /\
  map (fun x : nat * list N * rvalue => (x.1.1, st_time (rv_ts x.2))) (rrun (cluster_init 3) [] ex_restart_evs).2
  = [(0%nat, 1%N); (0%nat, 2%N); (1%nat, 2%N); (0%nat, 4%N); (1%nat, 4%N)].
Proof. exact (conj ex_restart_valid ex_restart_stamps). Qed.
Print Assumptions C06_restart_nonvacuous.

(* The runs of the four theorems above also contain the counter-like commands (RClient2: INCR /
   DECR / INCRBY / DECRBY, GETSET, HINCRBY): given the executor's state such a command is the SET
   (resp. one-field HSET) of its post-value that the glue records, or nothing when it is refused.
   Non-vacuity: INCRBY 5 and -7 on an absent key leave "-2", GETSET "10" then INCR leave "11",
   HINCRBY on a non-integer field and an overflowing one are refused. *)
Example C06_counter_nonvacuous :
  (valid_rrun ex_K (cluster_init 3) [] ex_counter_evs /\ rrun_no_ovf (cluster_init 3) [] ex_counter_evs) /\
  (map (fun x : nat * list N * rvalue => (x.1.1, x.1.2, st_time (rv_ts x.2))) (rrun (cluster_init 3) [] ex_counter_evs).2
   = [(0%nat, [115%N], 1%N); (0%nat, [115%N], 2%N); (1%nat, [104%N], 2%N); (0%nat, [115%N], 4%N); (1%nat, [104%N], 4%N);
      (0%nat, [99%N], 5%N); (0%nat, [99%N], 6%N); (0%nat, [115%N], 7%N); (0%nat, [115%N], 8%N); (1%nat, [104%N], 5%N)]
   /\ map (fun n => (n_x n !! [99%N], n_x n !! [115%N])) (rrun (cluster_init 3) [] ex_counter_evs).1
   = [(Some (XStr [45%N; 50%N]), Some (XStr [49%N; 49%N])); (None, None); (None, None)]).
Proof. exact (conj ex_counter_valid ex_counter_log). Qed.
Print Assumptions C06_counter_nonvacuous.

(* Known findings: outside the class the property fails on the faithful model. *)
Theorem C06_expiry_refuted :
  let '(s1, ds) := run (shard_init 1 false) [EWrite kS [97%N] (Some 5000%N); EWrite kS [98%N] None] in
  let '(s2, _) := run (shard_init 2 false) (map (ERemote kS) ds) in
  option_map rv_exp (sh_keys s1 !! kS) = Some None /\
  option_map rv_exp (sh_keys s2 !! kS) = Some (Some 5000%N).
Proof. exact expiry_witness. Qed.
Print Assumptions C06_expiry_refuted.

Theorem C06_del_nonstring_refuted :
  let '(c1, log1) := crun (cluster_init 2) [] del_evs in
  match log1 with
  | [(_, _, d)] =>
      let '(c2, log2) := crun c1 log1 [CDeliver 1 kH d; CClient 0 (CDel kH)] in
      match log2 with
      | [_; (_, _, d2)] =>
          let '(c3, _) := crun c2 log2 [CDeliver 1 kH d2] in
          map (fun n => showx (serve n kH)) c3 = [(0%N, []); (2%N, [([102%N], [118%N])])] /\
          map (fun n => showx (state_says n kH)) c3 = [(2%N, [([102%N], [118%N])]); (2%N, [([102%N], [118%N])])]
      | _ => False
      end
  | _ => False
  end.
Proof. exact del_nonstring_witness. Qed.
Print Assumptions C06_del_nonstring_refuted.

Theorem C06_type_change_refuted :
  let '(c1, log1) := crun (cluster_init 2) []
     [CClient 0 (CHSet kS [([102%N], [118%N])]); CClient 0 (CHSet kS [([103%N], [119%N])]); CClient 1 (CSet kS [97%N] false false)] in
  match log1 with
  | [_; (_, _, dh); _] =>
      let '(c2, _) := crun c1 log1 [CDeliver 1 kS dh] in
      map n_glue_fail c2 = [false; true] /\
      map (fun n => showx (serve n kS)) c2 = [(2%N, [([102%N], [118%N]); ([103%N], [119%N])]); (1%N, [([97%N], [97%N])])] /\
      map (fun n => showx (state_says n kS)) c2 = [(2%N, [([102%N], [118%N]); ([103%N], [119%N])]); (2%N, [([102%N], [118%N]); ([103%N], [119%N])])]
  | _ => False
  end.
Proof. exact type_change_witness. Qed.
Print Assumptions C06_type_change_refuted.

(* Non-vacuity: a concrete run - two concurrent writers of one string key, deltas delivered in
   different orders and one of them twice - whose deltas are good and whose nodes all agree. *)
Example C06_nonvacuous :
  (let '(c, log) := crun (cluster_init 3) [] (ex_evs6 ++ ex_deliveries) in
   log = [(0%nat, kS, ex_d0); (1%nat, kS, ex_d1)] /\
   map (fun n => hist_of n kS) c = [[ex_d0; ex_d1]; [ex_d1; ex_d0]; [ex_d1; ex_d0; ex_d1]] /\
   map (fun n => showx (serve n kS)) c = [(1%N, [([98%N],[98%N])]); (1%N, [([98%N],[98%N])]); (1%N, [([98%N],[98%N])])] /\
   map (fun n => bool_decide (sh_keys (n_sh n) !! kS = sh_keys (n_sh (default (node_init 0) (c !! 0%nat))) !! kS)) c = [true; true; true])
  /\ Forall (good ex_U (fun _ => 0%N) kS) [ex_d0; ex_d1].
Proof. exact (conj ex_run6 ex_good6). Qed.
Print Assumptions C06_nonvacuous.
