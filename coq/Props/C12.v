(* C12 — streaming persistence is crash-consistent at every step and loses nothing confirmed.
   Model: Model/Store.v + Model/Persist.v.

   [run_persist c rid st0 ops io] runs the workload [ops] (push / flush /
   compact) of one process incarnation that starts on the store image [st0], against the
   outcome stream [io]: one outcome per object-store call, in program order (ok / error
   without effect / put error after a strict prefix was stored / put error after
   everything was stored / get that reports success with damaged bytes).  When [io] is
   exhausted the process is dead: quantifying over all [io] quantifies over every crash
   instant (between any two calls, or inside a put) and every placement of faults.
   [ps_conf] = the deltas of the flushes that returned Ok, [recover] =
   RecoveryManager::recover on the image left behind ([None] = it returns Err).
   [store_ok st] = the manifest of [st] (if any) parses and references only existing,
   complete objects - true of the empty store and, by the first theorem, of every image
   any incarnation leaves behind.  A store that acknowledges a truncated write is outside
   the fault model (Model/Store.v). *)
From stdpp Require Import gmap.
From Coq Require Import NArith.
From RV Require Import Model.Crdt Model.Store Model.Persist Proofs.PersistProofs.
Local Open Scope N_scope.

(* In every reachable store state - all workloads, crash points and fault placements, tombstone
   GC on or off - the manifest references only existing, complete objects. *)
Theorem C12_manifest_refs_complete : forall (c : pcfg) rid st0 (ops : list wop) (io : list outcome),
  v_strict_get (pc_var c) = true -> store_ok st0 ->
  store_ok (w_store (s_w (run_persist c rid st0 ops io))).
Proof. exact refs_complete_lemma. Qed.
Print Assumptions C12_manifest_refs_complete.

(* Recovery at any crash point succeeds, and every delta of every flush that returned Ok is
   among the recovered deltas - verbatim, or merged (ReplicatedValue::merge, by a
   compaction) into a recovered delta of the same key.  Tombstone GC is C13's subject:
   compactions here run with now <= ttl. *)
Theorem C12_confirmed_recoverable : forall (c : pcfg) rid rid' st0 (ops : list wop) (io : list outcome),
  v_strict_get (pc_var c) = true -> v_merge (pc_var c) = true ->
  store_ok st0 -> gc_off (pc_cc c) ops ->
  let s := run_persist c rid st0 ops io in
  exists rec, recover (w_store (s_w s)) rid' = Some rec /\
    forall d, In d (ps_conf (s_p s)) -> exists d', In d' (r_deltas rec) /\ represents d' d.
Proof. exact confirmed_recoverable_lemma. Qed.
Print Assumptions C12_confirmed_recoverable.

(* Without compaction (any variant of the code, as found included) they are there verbatim. *)
Theorem C12_confirmed_recoverable_verbatim : forall (c : pcfg) rid rid' st0 (ops : list wop) (io : list outcome),
  store_ok st0 -> no_compaction ops ->
  let s := run_persist c rid st0 ops io in
  exists rec, recover (w_store (s_w s)) rid' = Some rec /\
    forall d, In d (ps_conf (s_p s)) -> In d (r_deltas rec).
Proof. exact confirmed_verbatim_lemma. Qed.
Print Assumptions C12_confirmed_recoverable_verbatim.

(* With the compaction that keeps the latest delta per key instead of merging (the code as
   found, see C13) only this weaker guarantee holds: a recovered delta of the same key
   carries an equal or later logical time. *)
Theorem C12_confirmed_superseded : forall (c : pcfg) rid rid' st0 (ops : list wop) (io : list outcome),
  v_strict_get (pc_var c) = true -> v_merge (pc_var c) = false ->
  store_ok st0 -> gc_off (pc_cc c) ops ->
  let s := run_persist c rid st0 ops io in
  exists rec, recover (w_store (s_w s)) rid' = Some rec /\
    forall d, In d (ps_conf (s_p s)) -> exists d', In d' (r_deltas rec) /\ supersedes d' d.
Proof. exact confirmed_superseded_lemma. Qed.
Print Assumptions C12_confirmed_superseded.

(* Any number of crash / restart cycles: what any incarnation confirmed is recovered after
   the crash of the last one. *)
Theorem C12_confirmed_recoverable_restarts : forall (c : pcfg) rid st0
    (hist : list (list wop * list outcome)) rid',
  v_strict_get (pc_var c) = true -> v_merge (pc_var c) = true ->
  store_ok st0 -> Forall (fun h => gc_off (pc_cc c) (fst h)) hist ->
  let '(st, conf) := run_incarnations c rid st0 hist in
  exists rec, recover st rid' = Some rec /\
    forall d, In d conf -> exists d', In d' (r_deltas rec) /\ represents d' d.
Proof. exact confirmed_restarts_lemma. Qed.
Print Assumptions C12_confirmed_recoverable_restarts.

(* A flush that returns Err leaves buffer, buffer size and everything else as they were. *)
Theorem C12_failed_flush_keeps_buffer : forall v p sz (w : world obj) p' w',
  v_restore v = true -> flush v p sz w = (p', w', FErr) -> p' = p.
Proof. exact failed_flush_lemma. Qed.
Print Assumptions C12_failed_flush_keeps_buffer.

(* Over whole workloads: as long as the process has not died (no call found the outcome
   stream exhausted, no panic), every delta push accepted is either confirmed by a flush that
   returned Ok or still in the buffer, in order - whatever failed in between. *)
Theorem C12_accepted_never_lost : forall (c : pcfg) rid st0 (ops : list wop) (io : list outcome),
  v_restore (pc_var c) = true ->
  let s := run_persist c rid st0 ops io in
  w_crashed (s_w s) = false -> ps_acc (s_p s) = ps_conf (s_p s) ++ ps_buf (s_p s).
Proof. exact accepted_lemma. Qed.
Print Assumptions C12_accepted_never_lost.

(* Regression (fixed: C12-failed-flush-drops-buffer): as found, a flush whose manifest read
   fails returns Err with an empty buffer; the accepted delta is neither pending nor
   confirmed although the process is alive. *)
Theorem C12_failed_flush_as_found_refuted :
  exists ops io d,
    let s := run_persist (ex_pcfg as_found) 1 ∅ ops io in
    w_crashed (s_w s) = false /\ In d (ps_acc (s_p s)) /\
    ~ In d (ps_conf (s_p s)) /\ ~ In d (ps_buf (s_p s)).
Proof.
  exists w1_ops, w1_io, (dlt 1 7 1 1).
  destruct as_found_flush_drops_buffer as (_ & H1 & H2 & H3 & H4).
  cbv zeta. rewrite H1, H2, H3, H4. repeat split; [by left|intros []|intros []].
Qed.
Print Assumptions C12_failed_flush_as_found_refuted.

(* Regression (fixed: C12-compaction-get-error): as found, a transient error of one get
   inside a compaction makes it drop the segment from the manifest and delete it: a delta
   confirmed earlier is not recovered (no recovered delta has its key). *)
Theorem C12_compaction_get_error_as_found_refuted :
  exists ops io d rec,
    let s := run_persist (ex_pcfg as_found) 1 ∅ ops io in
    w_crashed (s_w s) = false /\ In d (ps_conf (s_p s)) /\
    recover (w_store (s_w s)) 1 = Some rec /\
    forall d', In d' (r_deltas rec) -> d_key d' <> d_key d.
Proof.
  destruct as_found_compaction_get_error as (H1 & _ & H2 & rec & Hr & H3).
  exists w2_ops, w2_io, (dlt 1 7 1 1), rec. cbv zeta. rewrite H2, H3.
  repeat split; [by left|done|]. by intros d' [<-|[]].
Qed.
Print Assumptions C12_compaction_get_error_as_found_refuted.

(* The hypotheses are satisfiable by a non-trivial run: a torn segment put, a retried flush,
   a compaction, and a crash between the compaction's deletes; three deltas confirmed, all
   three recovered (two verbatim, one as the survivor of the compaction). *)
Example C12_nonvacuous :
  let s := run_persist (ex_pcfg repaired) 1 ∅ w3_ops w3_io in
  s_res s = [RCompact CCrash; RFlush (FOk 2) 0; RFlush FErr 2; RPush true; RPush true;
             RFlush (FOk 1) 0; RPush true] /\
  w_crashed (s_w s) = true /\
  map sig_of (ps_conf (s_p s)) = [(1, 1); (2, 2); (1, 3)] /\
  match recover (w_store (s_w s)) 1 with
  | Some rec => map sig_of (r_deltas rec) = [(2, 2); (1, 3)]
  | None => False
  end /\
  gc_off (pc_cc (ex_pcfg repaired)) w3_ops.
Proof.
  vm_compute. repeat split; try done. repeat constructor; vm_compute; discriminate.
Qed.
Print Assumptions C12_nonvacuous.
