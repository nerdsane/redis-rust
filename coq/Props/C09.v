(* C09 — always-fsync WAL: a write reported durable survives a crash at any instant.
   This file holds the property statements; the model is Model/WalActor.v, the proofs
   are in Proofs/WalActorProofs.v (the concrete runs defined there are evaluated here).

   Reading guide.  [run cfg sched io] is the state of the WAL actor (FsyncPolicy::Always)
   and of its store after it has processed the schedule [sched] (Write messages in the
   order it dequeued them, flush_group_commit points = batch boundaries) against the
   outcome stream [io] (one outcome per I/O call, in program order: ok, or an error that
   left nothing / a torn prefix / everything in the file; a create or fsync that fails).
   When [io] runs out the process is dead: a crash instant is a prefix of [io] (between any
   two I/O calls) and of [sched].  [crash] cuts every file to what a successful fsync of
   that file covered; [recover_all] is WalRotator::recover_all_entries. *)
From Coq Require Import NArith List.
From RV Require Import Model.WalActor Proofs.WalActorProofs.
Import ListNotations.
Local Open Scope N_scope.

(* For every rotation threshold, every group-commit bound, every schedule (batching of
   concurrent writers, Shutdown and TruncateUpTo messages anywhere), every outcome stream
   (fault placement: failed / partial / lying append, disk full, failed fsync, failed
   create, failed delete, in any number and position) and every crash instant (prefix
   lengths n, m): every write acked Ok whose stamp is above every watermark the actor was
   asked to truncate to is returned by recovery.  (A write is named w = stamp * 1024 + serial,
   [stamp w] = w / 1024 is the timestamp of its entry: stamps may repeat; entries
   stamped <= a watermark have been streamed to the object store and may be deleted.) *)
Theorem C09_acked_survive :
  forall (max_file_size max_entries : N) (sched : list sched_item) (io : list outcome) (n m : nat),
  let a := run (Config Repaired max_file_size max_entries) (firstn n sched) (firstn m io) in
  forall w, In w (acked_ok a) ->
  (forall t, In (STruncate t) (firstn n sched) -> t < stamp w) ->
  In w (recover_all (crash (s_store a))).
Proof.
  intros mf me sched io n m.
  exact (acked_survive_repaired (Config Repaired mf me) (firstn n sched) (firstn m io) eq_refl).
Qed.
Print Assumptions C09_acked_survive.

(* The special case without truncation: the statement of the property as it stands. *)
Theorem C09_acked_survive_no_truncation :
  forall (max_file_size max_entries : N) (sched : list sched_item) (io : list outcome),
  (forall t, ~ In (STruncate t) sched) ->
  let a := run (Config Repaired max_file_size max_entries) sched io in
  forall w, In w (acked_ok a) -> In w (recover_all (crash (s_store a))).
Proof.
  intros mf me sched io NT a w H. apply (acked_survive_repaired (Config Repaired mf me) sched io eq_refl w H).
  intros t Ht. destruct (NT t Ht).
Qed.
Print Assumptions C09_acked_survive_no_truncation.

(* The sharp form: [s_released] collects exactly the readable entries of the files that
   truncate_before deleted.  An acked write that is not among them is recovered; and only
   entries stamped at or below an applied watermark are ever among them - whatever the
   order of stamps inside a file (a file holding 5, 1, 3 is not deleted by watermark 3). *)
Theorem C09_acked_survive_unless_truncated :
  forall (max_file_size max_entries : N) (sched : list sched_item) (io : list outcome),
  let a := run (Config Repaired max_file_size max_entries) sched io in
  forall w, In w (acked_ok a) -> ~ In w (s_released a) -> In w (recover_all (crash (s_store a))).
Proof. intros mf me sched io. exact (acked_survive_unless_released (Config Repaired mf me) sched io eq_refl). Qed.
Print Assumptions C09_acked_survive_unless_truncated.

Theorem C09_truncation_releases_only_below_watermark :
  forall (cfg : config) (sched : list sched_item) (io : list outcome) (w : N),
  In w (s_released (run cfg sched io)) -> exists t, In (STruncate t) sched /\ stamp w <= t.
Proof. exact released_below_watermark. Qed.
Print Assumptions C09_truncation_releases_only_below_watermark.

(* A crash that spares more than it must: file s keeps its first max(synced, keep s) items
   (any part of the unsynced tails may survive) - acked writes are recovered all the same. *)
Theorem C09_acked_survive_any_spared_tail :
  forall (max_file_size max_entries : N) (sched : list sched_item) (io : list outcome) (keep : N -> nat),
  let a := run (Config Repaired max_file_size max_entries) sched io in
  forall w, In w (acked_ok a) -> ~ In w (s_released a) ->
  In w (recover_all (crash_keep keep (s_store a))).
Proof. intros mf me sched io keep. exact (acked_survive_keep (Config Repaired mf me) sched io keep eq_refl). Qed.
Print Assumptions C09_acked_survive_any_spared_tail.

(* Any number of crash / restart cycles (each incarnation: what its preceding crash spared,
   its schedule, its outcome stream; a new actor starts on what survived, numbering its
   files after the largest existing sequence number as WalRotator::new does): a write acked
   Ok by any incarnation, stamped above every watermark of every incarnation, is recovered
   after the crash of the last one. *)
Theorem C09_acked_survive_restarts :
  forall (max_file_size max_entries : N)
         (hist : list ((N -> nat) * list sched_item * list outcome)) (keep : N -> nat),
  let a := run_incarnations (Config Repaired max_file_size max_entries) hist in
  forall w, In w (acked_ok a) ->
    (forall k sched io t, In (k, sched, io) hist -> In (STruncate t) sched -> t < stamp w) ->
    In w (recover_all (crash (s_store a))) /\ In w (recover_all (crash_keep keep (s_store a))).
Proof. intros mf me hist keep. exact (acked_survive_restarts_watermark (Config Repaired mf me) hist keep eq_refl). Qed.
Print Assumptions C09_acked_survive_restarts.

(* Sequence numbers of existing files never exceed current_sequence, and rotate() creates
   current_sequence + 1: create never replaces (truncates) an existing WAL file. *)
Theorem C09_create_never_replaces :
  forall (max_file_size max_entries : N) (sched : list sched_item) (io : list outcome) p,
  let a := run (Config Repaired max_file_size max_entries) sched io in
  In p (s_store a) -> fst p <= s_seq a.
Proof. intros mf me sched io p. exact (seq_bound_run (Config Repaired mf me) sched io p eq_refl). Qed.
Print Assumptions C09_create_never_replaces.

(* Rust panics are explicit in the model ([s_panic]): the expect("current_writer must exist
   after rotate") in WalRotator::append never fires, and the actor's debug invariant
   (verify_invariants: pending_acks.len() <= entries_since_sync; fire-and-forget writes
   count as entries without a pending ack) holds in every reachable state - for both variants of the
   rotator, every history, every fault placement. *)
Theorem C09_actor_never_panics :
  forall (cfg : config) (hist : list ((N -> nat) * list sched_item * list outcome)),
  let a := run_incarnations cfg hist in
  s_panic a = false /\ N.of_nat (length (s_pending a)) <= s_since a.
Proof. exact never_panics. Qed.
Print Assumptions C09_actor_never_panics.

(* Regression: the rotator as it was before the repair (rotate() and the append-error path
   drop the writer without fsync) loses acked writes.  No fault is needed for the first. *)
Theorem C09_legacy_rotation_in_batch_refuted :
  exists cfg sched io w,
    c_variant cfg = Legacy /\ Forall (fun o => o = OOk) io /\ valid_schedule cfg sched io = true /\
    In w (acked_ok (run cfg sched io)) /\ ~ In w (recover_all (crash (s_store (run cfg sched io)))).
Proof.
  exists legacy_cfg, wit_sched, wit_io, 1.
  destruct legacy_rotation_witness as [A [B [C D]]]. unfold recovered_after_crash in D.
  split; [reflexivity|]. split; [exact A|]. split; [exact B|]. rewrite C, D. split.
  - do 5 right. left. reflexivity.
  - intros [H|[H|[H|[]]]]; discriminate H.
Qed.
Print Assumptions C09_legacy_rotation_in_batch_refuted.

Theorem C09_legacy_append_error_in_batch_refuted :
  exists cfg sched io w,
    c_variant cfg = Legacy /\ valid_schedule cfg sched io = true /\ s_halt (run cfg sched io) = false /\
    In w (acked_ok (run cfg sched io)) /\ ~ In w (recover_all (crash (s_store (run cfg sched io)))).
Proof.
  exists wit2_cfg, wit2_sched, wit2_io, 1.
  destruct legacy_append_error_witness as [A [B [_ [C D]]]]. unfold recovered_after_crash in D.
  split; [reflexivity|]. split; [exact A|]. split; [exact C|]. rewrite B, D. split.
  - right. left. reflexivity.
  - intros [].
Qed.
Print Assumptions C09_legacy_append_error_in_batch_refuted.

(* The statement is not vacuous: a valid schedule with a rotation inside a batch, a torn
   append, an append that reports an error after writing everything and a failed fsync;
   four writes are acked Ok, three are reported failed (two of those survive anyway); at
   the crash instant after 9 I/O calls nothing is acked yet and entries 1-3 are durable. *)
Example C09_nonvacuous :
  valid_schedule repaired_cfg ex_sched ex_io = true /\
  s_halt (run repaired_cfg ex_sched ex_io) = false /\
  acked_ok (run repaired_cfg ex_sched ex_io) = [7; 3; 2; 1] /\
  s_err (run repaired_cfg ex_sched ex_io) = [5; 6; 4] /\
  recover_all (crash (s_store (run repaired_cfg ex_sched ex_io))) = [1; 2; 3; 5; 6; 7] /\
  recover_all (crash (s_store (run repaired_cfg ex_sched (firstn 9 ex_io)))) = [1; 2; 3] /\
  acked_ok (run repaired_cfg ex_sched (firstn 9 ex_io)) = [].
Proof. repeat apply conj; vm_compute; reflexivity. Qed.
Print Assumptions C09_nonvacuous.

(* ... and so is the statement about restarts (see the comment at ex_hist2 in the proofs). *)
Example C09_nonvacuous_restarts :
  acked_ok (run_incarnations repaired_cfg ex_hist2) = [6; 5; 4; 3; 2; 1] /\
  s_halt (run_incarnations repaired_cfg ex_hist2) = true /\
  recover_all (crash (s_store (run_incarnations repaired_cfg ex_hist2))) = [1; 2; 3; 4; 5; 6] /\
  recover_all (crash_keep k_all (s_store (run_incarnations repaired_cfg ex_hist2))) = [1; 2; 3; 4; 5; 6; 7; 8] /\
  acked_ok (run_incarnations repaired_cfg ex_hist3) = [9; 6; 5; 4; 3; 2; 1] /\
  recover_all (crash (s_store (run_incarnations repaired_cfg ex_hist3))) = [1; 2; 3; 4; 5; 6; 7; 8; 9] /\
  map fst (s_store (run_incarnations repaired_cfg ex_hist3)) = [1; 2; 3; 4].
Proof. repeat apply conj; vm_compute; reflexivity. Qed.
Print Assumptions C09_nonvacuous_restarts.

(* Truncation with out-of-order stamps inside a closed file. *)
Example C09_nonvacuous_truncation :
  acked_ok (run repaired_cfg (tr_sched 3) (repeat OOk 20)) = [wid 9 4; wid 3 3; wid 1 2; wid 5 1] /\
  s_released (run repaired_cfg (tr_sched 3) (repeat OOk 20)) = [] /\
  recover_all (crash (s_store (run repaired_cfg (tr_sched 3) (repeat OOk 20)))) = [wid 5 1; wid 1 2; wid 3 3; wid 9 4] /\
  s_released (run repaired_cfg (tr_sched 5) (repeat OOk 20)) = [wid 5 1; wid 1 2; wid 3 3] /\
  recover_all (crash (s_store (run repaired_cfg (tr_sched 5) (repeat OOk 20)))) = [wid 9 4] /\
  s_halt (run repaired_cfg (tr_sched 5) (repeat OOk 20)) = false.
Proof. repeat apply conj; vm_compute; reflexivity. Qed.
Print Assumptions C09_nonvacuous_truncation.

(* Equal stamps: four different writes stamped 7 (one per file, so a rotation lies between
   every adjacent pair) and one stamped 6 - all acked, all recovered, in order. *)
Example C09_nonvacuous_equal_stamps :
  acked_ok (run (Config Repaired 101 8) eq_sched (repeat OOk 40)) = [wid 6 5; wid 7 4; wid 7 3; wid 7 2; wid 7 1] /\
  recover_all (crash (s_store (run (Config Repaired 101 8) eq_sched (repeat OOk 40)))) = [wid 7 1; wid 7 2; wid 7 3; wid 7 4; wid 6 5] /\
  map fst (s_store (run (Config Repaired 101 8) eq_sched (repeat OOk 40))) = [1; 2; 3; 4; 5].
Proof. repeat apply conj; vm_compute; reflexivity. Qed.
Print Assumptions C09_nonvacuous_equal_stamps.
