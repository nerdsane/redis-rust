(* Executable CRC-32 (IEEE 802.3: reflected polynomial 0xEDB88320, initial value and final
   xor 0xFFFFFFFF) - the function computed by the `crc32fast` crate ([crc32fast::hash], and
   [Hasher::update]* / [finalize] on the concatenation of the updates).

   FOR EXECUTION ONLY: the theorems of C10/C14 are proved for an arbitrary checksum function
   (a section variable); this definition instantiates it in the correspondence files, where
   it is compared with the Rust crate on every generated image, and in the concrete witnesses
   and non-vacuity examples of Props/C10.v and Props/C14.v. *)
From Coq Require Import NArith List String.
From RV Require Import Lib.Hex.
Import ListNotations.
Local Open Scope string_scope.
Local Open Scope N_scope.

Definition CRC_POLY : N := 3988292384.      (* 0xEDB88320 *)
Definition CRC_MASK : N := 4294967295.      (* 0xFFFFFFFF *)

(* reference definition: one bit at a time *)
Definition crc_bit (c : N) : N :=
  if N.odd c then N.lxor (N.shiftr c 1) CRC_POLY else N.shiftr c 1.
Fixpoint crc_bits (k : nat) (c : N) : N :=
  match k with O => c | S k' => crc_bits k' (crc_bit c) end.
Definition crc_step_ref (c b : N) : N := crc_bits 8 (N.lxor c b).
Definition crc32_ref (d : bytes) : N := N.lxor (fold_left crc_step_ref d CRC_MASK) CRC_MASK.

(* fast definition: two table look-ups per byte (table of the 16 nibble remainders) *)
Definition crc_t16 (i : N) : N :=
  match i with
  | 0 => 0             | 1 => 498536548     | 2 => 997073096     | 3 => 651767980
  | 4 => 1994146192    | 5 => 1802195444    | 6 => 1303535960    | 7 => 1342533948
  | 8 => 3988292384    | 9 => 4027552580    | 10 => 3604390888   | 11 => 3412177804
  | 12 => 2607071920   | 13 => 2262029012   | 14 => 2685067896   | 15 => 3183342108
  | _ => 0
  end.
Definition crc_nib (c : N) : N := N.lxor (N.shiftr c 4) (crc_t16 (N.land c 15)).
Definition crc_step (c b : N) : N := crc_nib (crc_nib (N.lxor c b)).
Definition crc32 (d : bytes) : N := N.lxor (fold_left crc_step d CRC_MASK) CRC_MASK.

Lemma crc_t16_ref : forallb (fun i => crc_t16 i =? crc_bits 4 i)
  [0;1;2;3;4;5;6;7;8;9;10;11;12;13;14;15] = true.
Proof. vm_compute. reflexivity. Qed.

(* standard check value, and agreement of the two definitions on a few inputs *)
Example crc32_check_value : crc32 (unhex "313233343536373839") = 3421780262.
Proof. vm_compute. reflexivity. Qed.
Example crc32_ref_check_value : crc32_ref (unhex "313233343536373839") = 3421780262.
Proof. vm_compute. reflexivity. Qed.
Example crc32_empty : crc32 [] = 0.
Proof. vm_compute. reflexivity. Qed.
Example crc32_agree_ref :
  forallb (fun d => crc32 d =? crc32_ref d)
    [[]; [0]; [255]; [1;2;3;4]; unhex "deadbeef00ff10"; unhex "52574c41010000000100000000000000"] = true.
Proof. vm_compute. reflexivity. Qed.
