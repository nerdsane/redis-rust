(* Byte-level helpers shared by the codec models:
   - [res]: outcome of a Rust function that may return an error or panic;
   - little-endian encode/decode of fixed-width unsigned integers over [list N]
     (Rust's [to_le_bytes] / [from_le_bytes]) with round-trip lemmas;
   - [lenN]/[takeN]/[dropN]/[sliceN]: lengths and slices indexed by [N], so that a length
     field read from untrusted bytes (up to 2^32) is compared in binary and only converted
     to [nat] after the bounds check has passed. *)
From Coq Require Import Arith NArith List Lia Bool.
From RV Require Import Lib.Hex Lib.ListFacts.
Import ListNotations.
Local Open Scope N_scope.

Inductive res (E A : Type) : Type :=
| Ok (a : A)
| Err (e : E)
| Panic.
Arguments Ok {E A} a.
Arguments Err {E A} e.
Arguments Panic {E A}.

Definition rbind {E A B} (r : res E A) (f : A -> res E B) : res E B :=
  match r with Ok a => f a | Err e => Err e | Panic => Panic end.
Notation "'do' x <- r ; k" := (rbind r (fun x => k))
  (at level 200, x pattern, r at level 100, k at level 200, right associativity).

(* An unchecked Rust index/slice: [None] becomes a panic. *)
Definition or_panic {E A} (o : option A) : res E A :=
  match o with Some a => Ok a | None => Panic end.

Definition is_ok {E A} (r : res E A) : bool := match r with Ok _ => true | _ => false end.
Definition is_err {E A} (r : res E A) : bool := match r with Err _ => true | _ => false end.

Fixpoint le_enc (w : nat) (n : N) : list N :=
  match w with
  | O => []
  | S w' => n mod 256 :: le_enc w' (n / 256)
  end.

Fixpoint le_dec (b : list N) : N :=
  match b with
  | [] => 0
  | x :: r => x + 256 * le_dec r
  end.

Definition byte_lt (x : N) : Prop := x < 256.

Definition lenN {A} (l : list A) : N := N.of_nat (length l).
Definition takeN {A} (n : N) (l : list A) : list A := firstn (N.to_nat n) l.
Definition dropN {A} (n : N) (l : list A) : list A := skipn (N.to_nat n) l.

(* Rust's [l[a..b]]: panics (here: [None]) when a > b or b > len. *)
Definition sliceN {A} (a b : N) (l : list A) : option (list A) :=
  if (a <=? b) && (b <=? lenN l) then Some (takeN (b - a) (dropN a l)) else None.
(* Rust's [l[i]]. *)
Definition indexN (i : N) (l : list N) : option N :=
  if i <? lenN l then Some (nth (N.to_nat i) l 0) else None.

(* the boolean tests of the models, decided from the order fact ([N.ltb_lt] etc. are only iffs) *)
Lemma ltb_true : forall a b, a < b -> a <? b = true.
Proof. intros a b. apply N.ltb_lt. Qed.
Lemma ltb_false : forall a b, b <= a -> a <? b = false.
Proof. intros a b. apply N.ltb_ge. Qed.
Lemma leb_true : forall a b, a <= b -> a <=? b = true.
Proof. intros a b. apply N.leb_le. Qed.

Lemma lenN_nil : forall A, lenN (@nil A) = 0. Proof. reflexivity. Qed.
Lemma lenN_cons : forall A (x : A) l, lenN (x :: l) = 1 + lenN l.
Proof. intros. unfold lenN. cbn [length]. lia. Qed.
Lemma lenN_app : forall A (a b : list A), lenN (a ++ b) = lenN a + lenN b.
Proof. intros. unfold lenN. rewrite app_length. lia. Qed.
Lemma lenN_repeat : forall A (x : A) n, lenN (repeat x n) = N.of_nat n.
Proof. intros. unfold lenN. now rewrite repeat_length. Qed.
Lemma lenN_0 : forall A (l : list A), lenN l = 0 -> l = [].
Proof. intros A [|x l]; auto. unfold lenN. cbn [length]. lia. Qed.

Lemma takeN_app_exact : forall A (a b : list A), takeN (lenN a) (a ++ b) = a.
Proof.
  intros. unfold takeN, lenN. rewrite Nat2N.id.
  rewrite firstn_app, Nat.sub_diag, firstn_all. cbn. apply app_nil_r.
Qed.
Lemma dropN_app_exact : forall A (a b : list A), dropN (lenN a) (a ++ b) = b.
Proof.
  intros. unfold dropN, lenN. rewrite Nat2N.id. apply skipn_app_exact.
Qed.
Lemma takeN_app_exact' : forall A n (a b : list A), n = lenN a -> takeN n (a ++ b) = a.
Proof. intros; subst; apply takeN_app_exact. Qed.
Lemma dropN_app_exact' : forall A n (a b : list A), n = lenN a -> dropN n (a ++ b) = b.
Proof. intros; subst; apply dropN_app_exact. Qed.
Lemma takeN_all : forall A n (l : list A), lenN l <= n -> takeN n l = l.
Proof. intros. unfold takeN, lenN in *. apply firstn_all2. lia. Qed.
Lemma dropN_all : forall A n (l : list A), lenN l <= n -> dropN n l = [].
Proof. intros. unfold dropN, lenN in *. apply skipn_all2. lia. Qed.
Lemma takeN_0 : forall A (l : list A), takeN 0 l = []. Proof. reflexivity. Qed.
Lemma dropN_0 : forall A (l : list A), dropN 0 l = l. Proof. reflexivity. Qed.
Lemma lenN_takeN : forall A n (l : list A), lenN (takeN n l) = N.min n (lenN l).
Proof. intros. unfold lenN, takeN. rewrite firstn_length. lia. Qed.
Lemma lenN_dropN : forall A n (l : list A), lenN (dropN n l) = lenN l - n.
Proof. intros. unfold lenN, dropN. rewrite skipn_length. lia. Qed.
Lemma takeN_dropN : forall A n (l : list A), takeN n l ++ dropN n l = l.
Proof. intros. apply firstn_skipn. Qed.
Lemma lenN_split : forall A n (l : list A), n <= lenN l -> exists a b, l = a ++ b /\ lenN a = n.
Proof.
  intros A n l H. exists (takeN n l), (dropN n l).
  split; [symmetry; apply takeN_dropN|]. rewrite lenN_takeN. lia.
Qed.
Lemma takeN_app_le : forall A n (a b : list A), n <= lenN a -> takeN n (a ++ b) = takeN n a.
Proof.
  intros. unfold takeN, lenN in *. apply firstn_app_le. lia.
Qed.
Lemma dropN_app_le : forall A n (a b : list A), n <= lenN a -> dropN n (a ++ b) = dropN n a ++ b.
Proof.
  intros. unfold dropN, lenN in *. apply skipn_app_le. lia.
Qed.
Lemma dropN_app_ge : forall A n (a b : list A), lenN a <= n -> dropN n (a ++ b) = dropN (n - lenN a) b.
Proof.
  intros. unfold dropN, lenN in *. rewrite skipn_app, skipn_all2 by lia.
  cbn. f_equal. lia.
Qed.
Lemma takeN_app_ge : forall A n (a b : list A), lenN a <= n -> takeN n (a ++ b) = a ++ takeN (n - lenN a) b.
Proof.
  intros. unfold takeN, lenN in *. rewrite firstn_app, firstn_all2 by lia.
  f_equal. f_equal. lia.
Qed.
Lemma dropN_dropN : forall A n m (l : list A), dropN n (dropN m l) = dropN (m + n) l.
Proof.
  intros. unfold dropN. rewrite N2Nat.inj_add. apply skipn_plus.
Qed.
Lemma takeN_takeN : forall A n m (l : list A), takeN n (takeN m l) = takeN (N.min n m) l.
Proof.
  intros. unfold takeN. rewrite firstn_firstn. f_equal. lia.
Qed.
Lemma firstn_as_takeN : forall A k (l : list A), firstn k l = takeN (N.of_nat k) l.
Proof. intros. unfold takeN. now rewrite Nat2N.id. Qed.

Lemma sliceN_ok : forall A a b (l : list A), a <= b -> b <= lenN l ->
  sliceN a b l = Some (takeN (b - a) (dropN a l)).
Proof.
  intros. unfold sliceN. now rewrite (leb_true a b), (leb_true b _).
Qed.
Lemma sliceN_Some : forall A a b (l r : list A),
  sliceN a b l = Some r -> a <= b /\ b <= lenN l /\ r = takeN (b - a) (dropN a l) /\ lenN r = b - a.
Proof.
  unfold sliceN. intros A a b l r H.
  destruct (N.leb_spec a b); [|discriminate]. destruct (N.leb_spec b (lenN l)); [|discriminate].
  injection H as <-. repeat split; auto. rewrite lenN_takeN, lenN_dropN. lia.
Qed.
Lemma sliceN_app_mid : forall A (a b c : list A) x y,
  x = lenN a -> y = lenN a + lenN b -> sliceN x y (a ++ b ++ c) = Some b.
Proof.
  intros A a b c x y -> ->. rewrite sliceN_ok by (rewrite ?lenN_app; lia).
  rewrite dropN_app_exact. f_equal. apply takeN_app_exact'. lia.
Qed.
Lemma sliceN_app_head : forall A (b c : list A) y,
  y = lenN b -> sliceN 0 y (b ++ c) = Some b.
Proof. intros. apply (sliceN_app_mid A [] b c); subst; cbn; auto. Qed.
Lemma sliceN_app_end : forall A (a b : list A) x y,
  x = lenN a -> y = lenN a + lenN b -> sliceN x y (a ++ b) = Some b.
Proof. intros A a b x y Hx Hy. rewrite <- (sliceN_app_mid A a b [] x y Hx Hy). now rewrite app_nil_r. Qed.
Lemma sliceN_all : forall A (l : list A) y, y = lenN l -> sliceN 0 y l = Some l.
Proof. intros A l y Hy. now apply (sliceN_app_end A [] l). Qed.
Lemma sliceN_app_tail : forall A (a l : list A) x n,
  x = lenN a -> n <= lenN l -> sliceN x (x + n) (a ++ l) = Some (takeN n l).
Proof.
  intros A a l x n -> H. rewrite sliceN_ok, dropN_app_exact by (rewrite ?lenN_app; lia).
  do 2 f_equal. lia.
Qed.
Lemma sliceN_app_l : forall A a b (l r : list A), b <= lenN l -> a <= b ->
  sliceN a b (l ++ r) = sliceN a b l.
Proof.
  intros. rewrite !sliceN_ok; auto; try (rewrite lenN_app; lia).
  f_equal. rewrite dropN_app_le by lia. apply takeN_app_le. rewrite lenN_dropN. lia.
Qed.
Lemma indexN_app_l : forall i (l r : list N), i < lenN l -> indexN i (l ++ r) = indexN i l.
Proof.
  intros. unfold indexN. rewrite lenN_app, !(ltb_true i _) by lia.
  f_equal. apply app_nth1. unfold lenN in *. lia.
Qed.
Lemma indexN_app_mid : forall (p q r : list N) i j, lenN p + j = i -> j < lenN q ->
  indexN i (p ++ q ++ r) = Some (nth (N.to_nat j) q 0).
Proof.
  intros p q r i j <- Hj. unfold indexN. rewrite !lenN_app, ltb_true by lia. f_equal.
  unfold lenN in *. rewrite app_nth2, app_nth1 by lia. f_equal. lia.
Qed.

Lemma firstn_app_split : forall A (a b : list A) k, (length a <= k)%nat ->
  firstn k (a ++ b) = a ++ firstn (k - length a) b.
Proof. intros. rewrite firstn_app, firstn_all2 by lia. reflexivity. Qed.

Lemma firstn_app_last : forall A (a b : list A) k n, length b = n -> (n <= k < length a + n)%nat ->
  exists t, firstn k (a ++ b) = firstn (k - n) a ++ t /\ length t = n.
Proof.
  intros A a b k n Hb Hk. exists (skipn (k - n) (firstn k (a ++ b))). split.
  - etransitivity; [symmetry; apply (firstn_skipn (k - n))|]. f_equal.
    rewrite firstn_firstn, Nat.min_l by lia. apply firstn_app_le. lia.
  - rewrite skipn_length, firstn_length, app_length. lia.
Qed.

Lemma le_enc_length : forall w n, length (le_enc w n) = w.
Proof. induction w; intros; cbn [le_enc length]; auto. Qed.
Lemma lenN_le_enc : forall w n, lenN (le_enc w n) = N.of_nat w.
Proof. intros. unfold lenN. now rewrite le_enc_length. Qed.

Lemma le_enc_wf : forall w n, Forall byte_lt (le_enc w n).
Proof.
  induction w; intros; cbn [le_enc]; constructor; auto.
  unfold byte_lt. apply N.mod_lt. lia.
Qed.

Lemma le_dec_enc_mod : forall w n, le_dec (le_enc w n) = n mod 256 ^ N.of_nat w.
Proof.
  induction w; intros n.
  - cbn. now rewrite N.mod_1_r.
  - cbn [le_enc le_dec]. rewrite IHw.
    rewrite Nat2N.inj_succ, N.pow_succ_r'.
    rewrite N.mod_mul_r; try lia.
Qed.

Lemma le_dec_enc : forall w n, n < 256 ^ N.of_nat w -> le_dec (le_enc w n) = n.
Proof. intros. rewrite le_dec_enc_mod. now apply N.mod_small. Qed.

Lemma le_enc_dec : forall w b, Forall byte_lt b -> lenN b = N.of_nat w -> le_enc w (le_dec b) = b.
Proof.
  intros w b H E. apply Nat2N.inj in E. subst w.
  induction H as [|x r Hx _ IH]; cbn [length le_enc le_dec]; auto.
  unfold byte_lt in Hx.
  rewrite N.mul_comm, N.mod_add, N.div_add, N.mod_small, N.div_small, N.add_0_l by lia.
  now rewrite IH.
Qed.

Lemma le_dec_lt : forall b, Forall byte_lt b -> le_dec b < 256 ^ N.of_nat (length b).
Proof.
  induction 1 as [|x r Hx _ IH]; cbn [length le_dec].
  - cbn. lia.
  - unfold byte_lt in Hx. rewrite Nat2N.inj_succ, N.pow_succ_r'. lia.
Qed.

Lemma le_enc_inj : forall w n m,
  n < 256 ^ N.of_nat w -> m < 256 ^ N.of_nat w -> le_enc w n = le_enc w m -> n = m.
Proof.
  intros w n m Hn Hm E. rewrite <- (le_dec_enc w n Hn), <- (le_dec_enc w m Hm). now rewrite E.
Qed.

Lemma le_enc_mod : forall w n, le_enc w (n mod 256 ^ N.of_nat w) = le_enc w n.
Proof.
  intros. rewrite <- le_dec_enc_mod. apply le_enc_dec; [apply le_enc_wf|apply lenN_le_enc].
Qed.

(* [le_dec_enc] with the bound as a literal, so that a hypothesis [n < U32] or [n < U64] of the
   proof files (where these are the same literals) closes it by [assumption] *)
Lemma le_dec_enc_u32 : forall n, n < 4294967296 -> le_dec (le_enc 4 n) = n.
Proof. intros. now apply le_dec_enc. Qed.
Lemma le_dec_enc_u64 : forall n, n < 18446744073709551616 -> le_dec (le_enc 8 n) = n.
Proof. intros. now apply le_dec_enc. Qed.

Lemma bytes_eqb_eq : forall a b, bytes_eqb a b = true <-> a = b.
Proof.
  induction a as [|x a IH]; destruct b as [|y b]; cbn; split; intros H; try easy.
  - apply andb_true_iff in H as [H1 H2]. apply N.eqb_eq in H1. apply IH in H2. congruence.
  - inversion H; subst. rewrite N.eqb_refl. cbn. now apply IH.
Qed.
Lemma bytes_eqb_refl : forall a, bytes_eqb a a = true.
Proof. intros. now apply bytes_eqb_eq. Qed.
Lemma bytes_eqb_neq : forall a b, bytes_eqb a b = false <-> a <> b.
Proof.
  intros a b. rewrite <- bytes_eqb_eq. now destruct (bytes_eqb a b).
Qed.
