(* The functions of Lib/SipHash.v with every `mod 2^k` / `/ 2^k` replaced by the
   equivalent mask / shift (linear instead of quadratic in the bit length under
   vm_compute: about 12x faster), and the proofs that they are the same functions.
   [sip13f b = sip13 b] and [le64f x = le64 x] for all arguments. *)
From Coq Require Import NArith List.
From RV Require Import Lib.SipHash.
Import ListNotations.
Local Open Scope N_scope.

Definition mask64 : N := 18446744073709551615.
Definition w64f (x : N) : N := N.land x mask64.
Definition rotlf (x b : N) : N := w64f (N.lor (N.shiftl x b) (N.shiftr x (64 - b))).

Definition sipround_f (v : N * N * N * N) : N * N * N * N :=
  let '(v0, v1, v2, v3) := v in
  let v0 := w64f (v0 + v1) in let v1 := rotlf v1 13 in let v1 := N.lxor v1 v0 in
  let v0 := rotlf v0 32 in
  let v2 := w64f (v2 + v3) in let v3 := rotlf v3 16 in let v3 := N.lxor v3 v2 in
  let v0 := w64f (v0 + v3) in let v3 := rotlf v3 21 in let v3 := N.lxor v3 v0 in
  let v2 := w64f (v2 + v1) in let v1 := rotlf v1 17 in let v1 := N.lxor v1 v2 in
  let v2 := rotlf v2 32 in
  (v0, v1, v2, v3).

Definition absorb_f (v : N * N * N * N) (m : N) : N * N * N * N :=
  let '(v0, v1, v2, v3) := v in
  let '(v0, v1, v2, v3) := sipround_f (v0, v1, v2, N.lxor v3 m) in
  (N.lxor v0 m, v1, v2, v3).

Fixpoint sip_words_f (fuel : nat) (b : list N) (v : N * N * N * N) : (N * N * N * N) * list N :=
  match fuel with
  | O => (v, b)
  | S f =>
    match b with
    | b0 :: b1 :: b2 :: b3 :: b4 :: b5 :: b6 :: b7 :: r =>
        sip_words_f f r (absorb_f v (le_val [b0; b1; b2; b3; b4; b5; b6; b7]))
    | _ => (v, b)
    end
  end.

Definition sip13f (b : list N) : N :=
  let v := (8317987319222330741, 7237128888997146477, 7816392313619706465, 8387220255154660723) in
  let '(v, tail) := sip_words_f (length b) b v in
  let last := w64f (N.shiftl (N.land (N.of_nat (length b)) 255) 56 + le_val tail) in
  let '(v0, v1, v2, v3) := absorb_f v last in
  let '(v0, v1, v2, v3) := sipround_f (sipround_f (sipround_f (v0, v1, N.lxor v2 255, v3))) in
  N.lxor (N.lxor v0 v1) (N.lxor v2 v3).

(* u64::to_le_bytes *)
Fixpoint le_bytes_f (n : nat) (x : N) : list N :=
  match n with O => [] | S k => N.land x 255 :: le_bytes_f k (N.shiftr x 8) end.
Definition le64f (x : N) : list N := le_bytes_f 8 x.

Lemma w64f_eq x : w64f x = w64 x.
Proof. unfold w64f, w64. change mask64 with (N.ones 64). rewrite N.land_ones. reflexivity. Qed.

Lemma rotlf_eq x b : rotlf x b = rotl x b.
Proof. unfold rotlf, rotl. apply w64f_eq. Qed.

Lemma sipround_f_eq v : sipround_f v = sipround v.
Proof.
  destruct v as [[[v0 v1] v2] v3]. unfold sipround_f, sipround.
  rewrite !w64f_eq, !rotlf_eq. reflexivity.
Qed.

Lemma absorb_f_eq v m : absorb_f v m = absorb v m.
Proof.
  destruct v as [[[v0 v1] v2] v3]. unfold absorb_f, absorb. rewrite sipround_f_eq. reflexivity.
Qed.

Lemma sip_words_f_eq fuel : forall b v, sip_words_f fuel b v = sip_words fuel b v.
Proof.
  induction fuel as [|f IH]; intros b v; [reflexivity|].
  cbn [sip_words_f sip_words].
  destruct b as [|b0 [|b1 [|b2 [|b3 [|b4 [|b5 [|b6 [|b7 r]]]]]]]]; try reflexivity.
  rewrite absorb_f_eq. apply IH.
Qed.

Lemma sip13f_eq b : sip13f b = sip13 b.
Proof.
  unfold sip13f, sip13. rewrite sip_words_f_eq.
  destruct (sip_words (length b) b _) as [v tail].
  rewrite w64f_eq. change 255 with (N.ones 8) at 1. rewrite N.land_ones.
  change (2 ^ 8) with 256. rewrite absorb_f_eq.
  destruct (absorb v _) as [[[v0 v1] v2] v3].
  rewrite !sipround_f_eq. reflexivity.
Qed.

Lemma le_bytes_f_eq n : forall x, le_bytes_f n x = le_bytes n x.
Proof.
  induction n as [|k IH]; intros x; [reflexivity|].
  cbn [le_bytes_f le_bytes]. change 255 with (N.ones 8). rewrite N.land_ones, N.shiftr_div_pow2.
  change (2 ^ 8) with 256. rewrite IH. reflexivity.
Qed.

Lemma le64f_eq x : le64f x = le64 x.
Proof. apply le_bytes_f_eq. Qed.

Example sip13f_foo : sip13f [102; 111; 111; 255] = 4506850079084802999.
Proof. vm_compute. reflexivity. Qed.
