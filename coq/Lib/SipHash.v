(* SipHash-1-3 with keys (0,0) over N with explicit mod 2^64: bit-exact model of
   std::collections::hash_map::DefaultHasher (Rust), used for shard routing, hash-ring
   positions and anti-entropy digests.  [sip13 bytes] = DefaultHasher fed [bytes]. *)
From Coq Require Import NArith List.
Import ListNotations.
Local Open Scope N_scope.

Definition M64 : N := 18446744073709551616.
Definition w64 (x : N) : N := x mod M64.
Definition rotl (x b : N) : N := w64 (N.lor (N.shiftl x b) (N.shiftr x (64 - b))).

Definition sipround (v : N * N * N * N) : N * N * N * N :=
  let '(v0, v1, v2, v3) := v in
  let v0 := w64 (v0 + v1) in let v1 := rotl v1 13 in let v1 := N.lxor v1 v0 in
  let v0 := rotl v0 32 in
  let v2 := w64 (v2 + v3) in let v3 := rotl v3 16 in let v3 := N.lxor v3 v2 in
  let v0 := w64 (v0 + v3) in let v3 := rotl v3 21 in let v3 := N.lxor v3 v0 in
  let v2 := w64 (v2 + v1) in let v1 := rotl v1 17 in let v1 := N.lxor v1 v2 in
  let v2 := rotl v2 32 in
  (v0, v1, v2, v3).

Fixpoint le_val (b : list N) : N :=
  match b with [] => 0 | x :: r => x + 256 * le_val r end.

Definition absorb (v : N * N * N * N) (m : N) : N * N * N * N :=
  let '(v0, v1, v2, v3) := v in
  let '(v0, v1, v2, v3) := sipround (v0, v1, v2, N.lxor v3 m) in
  (N.lxor v0 m, v1, v2, v3).

(* consume full 8-byte words; fuel = number of bytes *)
Fixpoint sip_words (fuel : nat) (b : list N) (v : N * N * N * N) : (N * N * N * N) * list N :=
  match fuel with
  | O => (v, b)
  | S f =>
    match b with
    | b0 :: b1 :: b2 :: b3 :: b4 :: b5 :: b6 :: b7 :: r =>
        sip_words f r (absorb v (le_val [b0; b1; b2; b3; b4; b5; b6; b7]))
    | _ => (v, b)
    end
  end.

(* the initial words are "somepseu", "dorandom", "lygenera", "tedbytes" read as big-endian u64
   (xored with the key, here 0); the last word carries the length byte on top; 255 is SipHash's
   finalisation constant *)
Definition sip13 (b : list N) : N :=
  let v := (8317987319222330741, 7237128888997146477, 7816392313619706465, 8387220255154660723) in
  let '(v, tail) := sip_words (length b) b v in
  let last := w64 (N.shiftl (N.of_nat (length b) mod 256) 56 + le_val tail) in
  let '(v0, v1, v2, v3) := absorb v last in
  let '(v0, v1, v2, v3) := sipround (sipround (sipround (v0, v1, N.lxor v2 255, v3))) in
  N.lxor (N.lxor v0 v1) (N.lxor v2 v3).

(* byte streams Rust's Hash impls feed to the hasher *)
Fixpoint le_bytes (n : nat) (x : N) : list N :=
  match n with O => [] | S k => (x mod 256) :: le_bytes k (x / 256) end.
Definition le64 (x : N) : list N := le_bytes 8 x.
Definition le32 (x : N) : list N := le_bytes 4 x.
Definition hash_str (s : list N) : N := sip13 (s ++ [255]).                    (* str::hash *)
Definition hash_slice (s : list N) : N := sip13 (le64 (N.of_nat (length s)) ++ s). (* <[u8]>::hash *)

(* "foo".hash() and b"foo"[..].hash() as computed by rustc's DefaultHasher *)
Example sip_foo_str : hash_str [102; 111; 111] = 4506850079084802999.
Proof. vm_compute. reflexivity. Qed.
Example sip_foo_slice : hash_slice [102; 111; 111] = 8088165896119295332.
Proof. vm_compute. reflexivity. Qed.
