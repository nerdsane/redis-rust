(* A faster evaluation of Lib/SipHash.v's [sip13] for vm_compute: the reduction modulo 2^64
   is done with [N.land _ (2^64-1)] instead of [N.modulo] (binary long division, ~100 us per
   call in the VM).  Nothing else changes; [sip13f_eq] proves the two functions equal, so
   every use of the fast version is a use of the reference model. *)
From Coq Require Import NArith List.
From RV Require Import Lib.SipHash.
From RV Require Lib.SipHashFast.
Import ListNotations.
Local Open Scope N_scope.

Definition MASK64 : N := 18446744073709551615.
Definition w64f (x : N) : N := N.land x MASK64.
Definition rotlf (x b : N) : N := w64f (N.lor (N.shiftl x b) (N.shiftr x (64 - b))).

Definition siproundf (v : N * N * N * N) : N * N * N * N :=
  let '(v0, v1, v2, v3) := v in
  let v0 := w64f (v0 + v1) in let v1 := rotlf v1 13 in let v1 := N.lxor v1 v0 in
  let v0 := rotlf v0 32 in
  let v2 := w64f (v2 + v3) in let v3 := rotlf v3 16 in let v3 := N.lxor v3 v2 in
  let v0 := w64f (v0 + v3) in let v3 := rotlf v3 21 in let v3 := N.lxor v3 v0 in
  let v2 := w64f (v2 + v1) in let v1 := rotlf v1 17 in let v1 := N.lxor v1 v2 in
  let v2 := rotlf v2 32 in
  (v0, v1, v2, v3).

Definition absorbf (v : N * N * N * N) (m : N) : N * N * N * N :=
  let '(v0, v1, v2, v3) := v in
  let '(v0, v1, v2, v3) := siproundf (v0, v1, v2, N.lxor v3 m) in
  (N.lxor v0 m, v1, v2, v3).

Fixpoint sip_wordsf (fuel : nat) (b : list N) (v : N * N * N * N) : (N * N * N * N) * list N :=
  match fuel with
  | O => (v, b)
  | S f =>
    match b with
    | b0 :: b1 :: b2 :: b3 :: b4 :: b5 :: b6 :: b7 :: r =>
        sip_wordsf f r (absorbf v (le_val [b0; b1; b2; b3; b4; b5; b6; b7]))
    | _ => (v, b)
    end
  end.

Definition sip13f (b : list N) : N :=
  let v := (8317987319222330741, 7237128888997146477, 7816392313619706465, 8387220255154660723) in
  let '(v, tail) := sip_wordsf (length b) b v in
  let last := w64f (N.shiftl (N.of_nat (length b) mod 256) 56 + le_val tail) in
  let '(v0, v1, v2, v3) := absorbf v last in
  let '(v0, v1, v2, v3) := siproundf (siproundf (siproundf (v0, v1, N.lxor v2 255, v3))) in
  N.lxor (N.lxor v0 v1) (N.lxor v2 v3).

(* Up to their names the five helper functions are those of Lib/SipHashFast.v, whose equalities apply
   as they stand; [sip13f] itself differs in how it cuts the length to a byte. *)
Lemma w64f_eq : forall x, w64f x = w64 x.
Proof. exact SipHashFast.w64f_eq. Qed.

Lemma rotlf_eq : forall x b, rotlf x b = rotl x b.
Proof. exact SipHashFast.rotlf_eq. Qed.

Lemma siproundf_eq : forall v, siproundf v = sipround v.
Proof. exact SipHashFast.sipround_f_eq. Qed.

Lemma absorbf_eq : forall v m, absorbf v m = absorb v m.
Proof. exact SipHashFast.absorb_f_eq. Qed.

Lemma sip_wordsf_eq : forall fuel b v, sip_wordsf fuel b v = sip_words fuel b v.
Proof. exact SipHashFast.sip_words_f_eq. Qed.

Theorem sip13f_eq : forall b, sip13f b = sip13 b.
Proof.
  intro b. unfold sip13f, sip13. rewrite sip_wordsf_eq.
  destruct (sip_words (length b) b _) as [v tail].
  rewrite w64f_eq, absorbf_eq.
  destruct (absorb v _) as [[[v0 v1] v2] v3].
  rewrite !siproundf_eq. reflexivity.
Qed.
