(* Facts about [filter], [NoDup], [firstn], [skipn], [flat_map], [existsb], [Permutation] and
   sorted lists that Coq 8.16's standard library lacks and that several proof files need.
   Standard library only; type arguments are explicit throughout. *)
From Coq Require Import List Bool Arith NArith Sorting.Permutation Sorting.Sorted.
Import ListNotations.

Lemma filter_all : forall A (p : A -> bool) (l : list A),
  (forall x, In x l -> p x = true) -> filter p l = l.
Proof.
  induction l as [|a l IH]; intro H; cbn [filter]; [reflexivity|].
  rewrite (H a (or_introl eq_refl)). f_equal. apply IH. intros x Hx. apply H. right. exact Hx.
Qed.

Lemma filter_none : forall A (p : A -> bool) (l : list A),
  (forall x, In x l -> p x = false) -> filter p l = [].
Proof.
  induction l as [|a l IH]; intro H; cbn [filter]; [reflexivity|].
  rewrite (H a (or_introl eq_refl)). apply IH. intros x Hx. apply H. right. exact Hx.
Qed.

Lemma filter_filter_and : forall A (p q : A -> bool) (l : list A),
  filter p (filter q l) = filter (fun x => q x && p x) l.
Proof.
  induction l as [|a l IH]; cbn [filter]; [reflexivity|].
  destruct (q a); cbn [filter andb]; [destruct (p a)|]; rewrite IH; reflexivity.
Qed.

Lemma filter_comm : forall A (p q : A -> bool) (l : list A),
  filter p (filter q l) = filter q (filter p l).
Proof.
  intros. rewrite !filter_filter_and. apply filter_ext. intro. apply andb_comm.
Qed.

Lemma filter_map_comm : forall A B (f : A -> B) (p : B -> bool) (l : list A),
  filter p (map f l) = map f (filter (fun x => p (f x)) l).
Proof.
  induction l as [|a l IH]; cbn [filter map]; [reflexivity|].
  destruct (p (f a)); cbn [map]; rewrite IH; reflexivity.
Qed.

Lemma Permutation_filter : forall A (p : A -> bool) (l l' : list A),
  Permutation l l' -> Permutation (filter p l) (filter p l').
Proof.
  induction 1 as [| x l l' _ IH | x y l | l l' l'' _ IH1 _ IH2]; cbn [filter].
  - constructor.
  - destruct (p x); [constructor|]; exact IH.
  - destruct (p x), (p y); try reflexivity. apply perm_swap.
  - etransitivity; eassumption.
Qed.

Lemma NoDup_app_inv : forall A (l1 l2 : list A),
  NoDup (l1 ++ l2) -> NoDup l2 /\ forall x, In x l1 -> ~ In x l2.
Proof.
  induction l1 as [|a t IH]; cbn; intros l2 H; [split; [exact H|intros x []]|].
  apply NoDup_cons_iff in H. destruct H as [Ha H]. destruct (IH _ H) as [N D]. split; [exact N|].
  intros x [<-|Hx]; [|exact (D x Hx)]. intro H2. apply Ha, in_or_app. right. exact H2.
Qed.

Lemma NoDup_app_r : forall A (l l' : list A), NoDup (l ++ l') -> NoDup l'.
Proof. intros A l l' H. apply (NoDup_app_inv A l l' H). Qed.

Lemma NoDup_app_l : forall A (l l' : list A), NoDup (l ++ l') -> NoDup l.
Proof. intros A l l' H. exact (NoDup_app_r A l' l (Permutation_NoDup (Permutation_app_comm l l') H)). Qed.

Lemma NoDup_snoc : forall A (l : list A) x, NoDup l -> ~ In x l -> NoDup (l ++ [x]).
Proof.
  intros A l x H Hx. exact (Permutation_NoDup (Permutation_cons_append l x) (NoDup_cons x Hx H)).
Qed.

Lemma NoDup_map_filter : forall A B (f : A -> B) (p : A -> bool) (l : list A),
  NoDup (map f l) -> NoDup (map f (filter p l)).
Proof.
  induction l as [|a l IH]; intro H; [constructor|].
  cbn [map] in H. apply NoDup_cons_iff in H. destruct H as [Hn Hd]. cbn [filter].
  destruct (p a); [|apply IH; exact Hd]. cbn [map]. constructor; [|apply IH; exact Hd].
  intro Hin. apply Hn. apply in_map_iff in Hin. destruct Hin as [b [Hb Hin]].
  apply filter_In in Hin. rewrite <- Hb. apply in_map. apply Hin.
Qed.

Lemma firstn_In : forall A (n : nat) (l : list A) x, In x (firstn n l) -> In x l.
Proof.
  intros A n l x H. rewrite <- (firstn_skipn n l). apply in_or_app. left. exact H.
Qed.

Lemma firstn_min_len : forall A (n m : nat) (l : list A),
  length l <= m -> firstn (Nat.min n m) l = firstn n l.
Proof.
  intros A n m l H. destruct (Nat.le_ge_cases n m) as [L|L].
  - rewrite Nat.min_l by exact L. reflexivity.
  - rewrite Nat.min_r by exact L. rewrite !firstn_all2; [reflexivity | | exact H].
    exact (Nat.le_trans _ _ _ H L).
Qed.

Lemma flat_map_snoc : forall A B (f : A -> list B) l x, flat_map f (l ++ [x]) = flat_map f l ++ f x.
Proof. intros. rewrite flat_map_app. cbn. rewrite app_nil_r. reflexivity. Qed.

Lemma map_flat_map : forall A B C (f : A -> list B) (g : B -> C) l,
  map g (flat_map f l) = flat_map (fun a => map g (f a)) l.
Proof. induction l as [|a t IH]; cbn; [reflexivity|]. rewrite map_app, IH. reflexivity. Qed.

Lemma NoDup_flat_map_inj : forall A B (f : A -> list B) (l : list A) e1 e2 x,
  NoDup (flat_map f l) -> In e1 l -> In e2 l -> In x (f e1) -> In x (f e2) -> e1 = e2.
Proof.
  induction l as [|a t IH]; cbn; intros e1 e2 x H H1 H2 X1 X2; [contradiction|].
  destruct (NoDup_app_inv _ _ _ H) as [N D].
  assert (Hd : forall e, In e t -> In x (f e) -> ~ In x (f a)).
  { intros e He Hx Ha. apply (D x Ha), in_flat_map. eauto. }
  destruct H1 as [<-|H1], H2 as [<-|H2].
  - reflexivity.
  - destruct (Hd _ H2 X2 X1).
  - destruct (Hd _ H1 X1 X2).
  - exact (IH _ _ _ N H1 H2 X1 X2).
Qed.

Lemma existsb_ext : forall A (f g : A -> bool) l, (forall x, f x = g x) -> existsb f l = existsb g l.
Proof. intros A f g l H. induction l as [|a t IH]; cbn; [reflexivity|]. rewrite H, IH. reflexivity. Qed.

Lemma skipn_app_le : forall A (l x : list A) n, n <= length l -> skipn n (l ++ x) = skipn n l ++ x.
Proof. intros A l x n H. rewrite skipn_app, (proj2 (Nat.sub_0_le _ _) H). reflexivity. Qed.

Lemma firstn_app_le : forall A (l x : list A) n, n <= length l -> firstn n (l ++ x) = firstn n l.
Proof. intros A l x n H. rewrite firstn_app, (proj2 (Nat.sub_0_le _ _) H). cbn. apply app_nil_r. Qed.

Lemma skipn_plus : forall A (l : list A) m n, skipn n (skipn m l) = skipn (m + n) l.
Proof.
  intros A l m. revert l. induction m as [|m IH]; intros l n; [reflexivity|].
  destruct l as [|x l]; [rewrite !skipn_nil; reflexivity|]. cbn [skipn Nat.add]. apply IH.
Qed.

Lemma skipn_app_exact : forall A (p r : list A), skipn (length p) (p ++ r) = r.
Proof. intros. rewrite skipn_app, skipn_all, Nat.sub_diag. reflexivity. Qed.

Lemma nth_error_skipn : forall A (l : list A) n, nth_error l n = hd_error (skipn n l).
Proof.
  induction l as [|x l IH]; intros [|n]; try reflexivity. cbn. apply IH.
Qed.

Lemma concat_firstn_len : forall A (l : list (list A)) i,
  length (concat (firstn i l)) <= length (concat l).
Proof.
  induction l as [|x l IH]; intros [|i]; cbn [firstn concat length]; try apply Nat.le_0_l.
  rewrite !app_length. apply Nat.add_le_mono_l, IH.
Qed.

(* a list sorted by a key, without repeated keys, is determined by its elements: each head is
   in the other list, hence is the other head or lies behind it; if both lie behind, the two
   heads have the same key *)
Lemma sorted_key_perm_unique : forall A (key : A -> N) (l1 l2 : list A),
  StronglySorted (fun a b => (key a <= key b)%N) l1 ->
  StronglySorted (fun a b => (key a <= key b)%N) l2 ->
  Permutation l1 l2 -> NoDup (map key l1) -> l1 = l2.
Proof.
  intros A key. induction l1 as [|a l1 IH]; intros l2 S1 S2 P ND.
  - apply Permutation_nil in P. subst. reflexivity.
  - destruct l2 as [|b l2]; [apply Permutation_sym, Permutation_nil in P; discriminate|].
    apply StronglySorted_inv in S1. destruct S1 as [S1 F1].
    apply StronglySorted_inv in S2. destruct S2 as [S2 F2].
    cbn [map] in ND. apply NoDup_cons_iff in ND. destruct ND as [Hn Hd].
    assert (E : a = b).
    { assert (Ha : In a (b :: l2)) by (eapply Permutation_in; [exact P | left; reflexivity]).
      assert (Hb : In b (a :: l1)) by (eapply Permutation_in; [apply Permutation_sym; exact P | left; reflexivity]).
      destruct Ha as [Ha|Ha]; [auto|]. destruct Hb as [Hb|Hb]; [auto|].
      rewrite Forall_forall in F1, F2. specialize (F1 b Hb). specialize (F2 a Ha).
      exfalso. apply Hn. rewrite (N.le_antisymm _ _ F1 F2).
      apply in_map. exact Hb. }
    subst b. f_equal. apply IH; auto. eapply Permutation_cons_inv. exact P.
Qed.
