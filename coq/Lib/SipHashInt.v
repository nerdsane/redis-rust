(* SipHash-1-3 (keys 0,0) on Coq's primitive 63-bit integers: a 64-bit word is a pair
   (hi, lo) of 32-bit halves.  Same function as Lib/SipHash.v [sip13] (not proved equal:
   compared on test vectors below, and numerically against Rust's DefaultHasher by every
   correspondence run that uses it); under vm_compute several times faster than [sip13f],
   dozens of times faster than [sip13].  Used only as the executable hash of correspondence
   checks; no theorem depends on it. *)
From Coq Require Import NArith ZArith List Uint63.
From RV Require Import Lib.SipHash Lib.SipHashFast.
Import ListNotations.

Module SipInt.
Local Open Scope uint63_scope.

Definition m32 : int := 4294967295.
Definition wadd (a b : int * int) : int * int :=
  let l := snd a + snd b in
  ((fst a + fst b + (l >> 32)) land m32, l land m32).
Definition wxor (a b : int * int) : int * int := (fst a lxor fst b, snd a lxor snd b).
(* rotate left by 0 < b < 32 *)
Definition wrotl (a : int * int) (b : int) : int * int :=
  let '(h, l) := a in
  (((h << b) lor (l >> (32 - b))) land m32, ((l << b) lor (h >> (32 - b))) land m32).
Definition wrot32 (a : int * int) : int * int := (snd a, fst a).

Notation word := (int * int)%type (only parsing).

Definition sipround (v : word * word * word * word) : word * word * word * word :=
  let '(v0, v1, v2, v3) := v in
  let v0 := wadd v0 v1 in let v1 := wrotl v1 13 in let v1 := wxor v1 v0 in
  let v0 := wrot32 v0 in
  let v2 := wadd v2 v3 in let v3 := wrotl v3 16 in let v3 := wxor v3 v2 in
  let v0 := wadd v0 v3 in let v3 := wrotl v3 21 in let v3 := wxor v3 v0 in
  let v2 := wadd v2 v1 in let v1 := wrotl v1 17 in let v1 := wxor v1 v2 in
  let v2 := wrot32 v2 in
  (v0, v1, v2, v3).

Definition absorb (v : word * word * word * word) (m : word) :=
  let '(v0, v1, v2, v3) := v in
  let '(v0, v1, v2, v3) := sipround (v0, v1, v2, wxor v3 m) in
  (wxor v0 m, v1, v2, v3).

Definition byte (b : N) : int := of_Z (Z.of_N b).
Fixpoint le4 (n : nat) (b : list N) : int * list N :=
  match n, b with
  | S k, x :: r => let '(v, rest) := le4 k r in (byte x + (v << 8), rest)
  | _, _ => (0, b)
  end.
Definition le_word (b : list N) : word :=
  let '(l, r) := le4 4 b in let '(h, _) := le4 4 r in (h, l).

Fixpoint words (fuel : nat) (b : list N) (v : word * word * word * word) :=
  match fuel with
  | O => (v, b)
  | S f =>
    match b with
    | b0 :: b1 :: b2 :: b3 :: b4 :: b5 :: b6 :: b7 :: r =>
        words f r (absorb v (le_word [b0; b1; b2; b3; b4; b5; b6; b7]))
    | _ => (v, b)
    end
  end.

Definition w_of_N (x : N) : word :=
  (of_Z (Z.of_N (N.shiftr x 32)), of_Z (Z.of_N (N.land x 4294967295))).
Definition N_of_w (w : word) : N :=
  (Z.to_N (to_Z (fst w)) * 4294967296 + Z.to_N (to_Z (snd w)))%N.

Definition init : word * word * word * word :=
  (w_of_N 8317987319222330741, w_of_N 7237128888997146477,
   w_of_N 7816392313619706465, w_of_N 8387220255154660723).

Definition sip13i (b : list N) : N :=
  let '(v, tail) := words (length b) b init in
  let '(th, tl) := le_word tail in
  let last := (th lor ((of_Z (Z.of_nat (length b)) land 255) << 24), tl) in
  let '(v0, v1, v2, v3) := absorb v last in
  let '(v0, v1, v2, v3) := sipround (sipround (sipround (v0, v1, wxor v2 (0, 255), v3))) in
  N_of_w (wxor (wxor v0 v1) (wxor v2 v3)).
End SipInt.

Definition sip13i := SipInt.sip13i.

(* test vectors: every length 0..40, bytes covering 0..255 *)
Definition sip_test_inputs : list (list N) :=
  map (fun n => map (fun i => N.of_nat ((i * 37 + n * 11) mod 256)) (seq 0 n)) (seq 0 41).

(* the same bytes computed in binary.  coqc's VM does not care, but coqchk replays the evaluation
   below with its lazy machine, where unary arithmetic up to 1920 for each of the 820 bytes is
   more than both hashes together *)
Lemma sip_test_inputs_N :
  sip_test_inputs =
  map (fun n => map (fun i => ((N.of_nat i * 37 + N.of_nat n * 11) mod 256)%N) (seq 0 n)) (seq 0 41).
Proof.
  unfold sip_test_inputs. apply map_ext; intros n. apply map_ext; intros i.
  rewrite Nat2N.inj_mod, Nat2N.inj_add, !Nat2N.inj_mul. reflexivity.
Qed.

Example sip13i_agrees_on_vectors :
  map sip13i sip_test_inputs = map sip13f sip_test_inputs.
Proof. rewrite sip_test_inputs_N. vm_compute. reflexivity. Qed.
